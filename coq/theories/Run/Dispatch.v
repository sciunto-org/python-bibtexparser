(* Entry point of the executable model: one sx in, one sx out.
   Case shape:  L (A op :: args).  Result: r_ok x | r_exc code | r_skip | sx_err (undecodable case).
   Op-code ranges:  1 ascii self-check | 10-19 month | 20-29 entry ops | 30-39 library ops | 40-49 field sorting/keys |
   50-59 block sorting | 60-69 writer | 70-79 stack | 80-99 names | 100-109 enclosing | 110-119 interpolate |
   120-129 latex wrapper | 130-149 splitter | 150-159 round trip | 160-179 heap | 180-189 runtime text layer *)
From Coq Require Import List NArith ZArith Bool.
From BP Require Import Base.Chars Base.Sx Run.Codec.
From BP Require Import Run.RunMonth Run.RunSplitter Run.RunEntry Run.RunLibrary Run.RunSortFields Run.RunSortBlocks
  Run.RunWriter Run.RunStack Run.RunEnclosing Run.RunInterpolate Run.RunLatex Run.RunGrammar Run.RunHeap
  Run.RunPipeline Run.RunNames Run.RunText.
Import ListNotations.
Local Open Scope Z_scope.

Definition in_range (lo hi op : Z) : bool := (lo <=? op) && (op <=? hi).

Definition run_case (x : sx) : sx :=
  match x with
  | L (A op :: args) =>
      if op =? 1 then match args with [n] => match as_N n with Some n' => r_ok (sN (asc n')) | None => sx_err end | _ => sx_err end
      else if in_range 10 19 op then run_month_any op args
      else if in_range 20 29 op then run_entry op args
      else if in_range 30 39 op then run_library op args
      else if in_range 40 49 op then run_sortfields op args
      else if in_range 50 59 op then run_sortblocks op args
      else if in_range 60 69 op then run_writer op args
      else if in_range 70 79 op then run_stack op args
      else if in_range 80 99 op then run_names op args
      else if in_range 100 109 op then run_enclosing op args
      else if in_range 110 119 op then run_interpolate op args
      else if in_range 120 129 op then run_latex op args
      else if in_range 133 134 op then run_grammar op args
      else if in_range 130 149 op then run_splitter op args
      else if in_range 150 159 op then run_pipeline op args
      else if in_range 160 179 op then run_heap op args
      else if in_range 180 189 op then run_text op args
      else sx_err
  | _ => sx_err
  end.

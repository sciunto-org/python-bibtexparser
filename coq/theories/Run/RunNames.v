(* ops 80-99: names engine (C12, C13, C14).
   80 (s)            split_multiple_persons_names + the C12 reference splitter when the stripped text is balanced
   81 (s)            parse_single_name_into_parts strict, and the C13 compositional spec
   82 (s)            parse_single_name_into_parts non-strict
   84 (parts)        merge_last_name_first        85 (parts)  merge_first_name_first
   86 (s)            person chain  parse -> merge -> parse
   87 (s)            list chain    split -> parse each -> merge each -> join -> split -> parse each
   90 (mws nf block) middleware stack on one block     (nf = () default name_fields | ((k1 k2 ...)))
   91 (block)        parse-side middlewares on the block; then the field values after the write-side middlewares
   95 (word)         BibTeX's own von test on one word (Spec/BibtexCase.von_token_found): ties the Coq statement of known
                     finding K14 to the Python transcription that gives the check's verdicts *)
From Coq Require Import List NArith ZArith Bool.
From BP Require Import Base.Chars Base.Sx Model.Blocks Run.Codec Gen.Constants Model.Names Spec.C12 Spec.C13
  Spec.C14 Spec.BibtexCase.
Import ListNotations.
Local Open Scope Z_scope.

Definition enc_parts (p : parts) : sx :=
  L [slist sstr (n_first p); slist sstr (n_von p); slist sstr (n_last p); slist sstr (n_jr p)].
Definition dec_parts (x : sx) : option parts :=
  match x with
  | L [a; b; c; d] => match as_strs a, as_strs b, as_strs c, as_strs d with
                      | Some a', Some b', Some c', Some d' => Some (mkparts a' b' c' d')
                      | _, _, _, _ => None
                      end
  | _ => None
  end.
Definition nerr_code (e : nerr) : Z :=
  match e with NUnmatched => 1 | NTooMany => 2 | NUnterminated => 3 | NTrailing => 4 end.
Definition enc_pres (r : pres parts) : sx :=
  match r with POk p => L [A 0; enc_parts p] | PErr e => L [A 1; A (nerr_code e)] end.

Definition dec_nmw (x : sx) : option nmw :=
  match x with
  | A 0 => Some MwSeparate | A 1 => Some MwMergeCo | A 2 => Some MwSplitParts
  | L [A 3; s] => option_map MwMergeParts (as_N s)
  | _ => None
  end.

Definition enc_nbres (r : nbres) : sx :=
  match r with NBVal b => r_ok (enc_block b) | NBRaise code => r_exc code | NBSkip => r_skip end.

Fixpoint all_ok (l : list (pres parts)) : option (list parts) :=
  match l with
  | [] => Some []
  | POk p :: r => match all_ok r with Some r' => Some (p :: r') | None => None end
  | PErr _ :: _ => None
  end.

Definition run_names (op : Z) (args : list sx) : sx :=
  if op =? 80 then
    match args with
    | [s] => match as_str s with
             | Some s' => r_ok (L [slist sstr (split_names s');
                                   if C12.balanced (strip4 s') then L [slist sstr (ref_split s')] else L []])
             | None => sx_err end
    | _ => sx_err end
  else if op =? 81 then
    match args with
    | [s] => match as_str s with
             | Some s' => r_ok (L [enc_pres (parse_name true s'); sopt enc_parts (spec_parse s')])
             | None => sx_err end
    | _ => sx_err end
  else if op =? 82 then
    match args with
    | [s] => match as_str s with Some s' => r_ok (enc_pres (parse_name false s')) | None => sx_err end
    | _ => sx_err end
  else if op =? 84 then
    match args with
    | [p] => match dec_parts p with Some p' => r_ok (sstr (merge_last_first p')) | None => sx_err end
    | _ => sx_err end
  else if op =? 85 then
    match args with
    | [p] => match dec_parts p with Some p' => r_ok (sstr (merge_first_first p')) | None => sx_err end
    | _ => sx_err end
  else if op =? 86 then
    match args with
    | [s] => match as_str s with
             | Some s' =>
                 match parse_name true s' with
                 | POk p => r_ok (L [enc_pres (POk p); sstr (merge1 p); enc_pres (split1 (merge1 p))])
                 | PErr e => r_ok (L [enc_pres (PErr e)])
                 end
             | None => sx_err end
    | _ => sx_err end
  else if op =? 87 then
    match args with
    | [s] => match as_str s with
             | Some s' =>
                 let names := split_names s' in
                 let ps := persons_of s' in
                 match all_ok ps with
                 | Some ps' =>
                     let v2 := merge_names (map merge1 ps') in
                     r_ok (L [slist sstr names; slist enc_pres ps; sstr v2; slist sstr (split_names v2);
                              slist enc_pres (persons_of v2)])
                 | None => r_ok (L [slist sstr names; slist enc_pres ps])
                 end
             | None => sx_err end
    | _ => sx_err end
  else if op =? 90 then
    match args with
    | [ms; nf; b] =>
        match as_list dec_nmw ms, as_opt as_strs nf, dec_block b with
        | Some mws, Some nfo, Some blk =>
            enc_nbres (name_stack (match nfo with Some l => l | None => default_name_fields end) mws blk)
        | _, _, _ => sx_err
        end
    | _ => sx_err end
  else if op =? 91 then
    match args with
    | [b] =>
        match dec_block b with
        | Some blk =>
            match name_stack default_name_fields parse_side blk with
            | NBVal b1 =>
                match name_stack default_name_fields write_side b1 with
                | NBVal (BEntry _ _ _ fs) => r_ok (L [enc_block b1; L [slist (fun f => enc_value (fval f)) fs]])
                | NBVal _ => r_ok (L [enc_block b1; L []])
                | NBRaise code => r_exc code
                | NBSkip => r_skip
                end
            | other => enc_nbres other
            end
        | None => sx_err
        end
    | _ => sx_err end
  else if op =? 95 then
    match args with
    | [w] => match as_str w with Some w' => r_ok (sbool (von_token_found w')) | None => sx_err end
    | _ => sx_err end
  else sx_err.

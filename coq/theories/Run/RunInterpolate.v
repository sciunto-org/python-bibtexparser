(* ops 110-119: string interpolation.  Input: the block list the library is built from (duplicates unwrapped).
   110 (blocks) -> blocks    ResolveStringReferencesMiddleware.transform(Library(blocks)).blocks
   111 (blocks) -> blocks    default parse stack: resolve, then RemoveEnclosingMiddleware
   112 (blocks) -> blocks    the other order: remove, then resolve *)
From Coq Require Import List NArith ZArith Bool.
From BP Require Import Base.Chars Base.Sx Model.Blocks Model.LibAdd Run.Codec Model.Enclosing Model.Interpolate
  Run.RunEnclosing.
Import ListNotations.
Local Open Scope Z_scope.

Definition run_interpolate (op : Z) (args : list sx) : sx :=
  match args with
  | [bs] =>
      match dec_blocks bs with
      | Some blocks =>
          if op =? 110 then r_ok (enc_lib (resolve_lib blocks))
          else if op =? 111 then enc_res enc_lib (default_stack blocks)
          else if op =? 112 then enc_res enc_lib (swapped_stack blocks)
          else sx_err
      | None => sx_err
      end
  | _ => sx_err
  end.

(* C03: the raw texts of the returned blocks tile the source (in order, no overlap, only whitespace between and
   around them, so no input character is dropped or duplicated) and every start_line is the 0-based line on
   which the raw text starts.  Stated for the text the splitter actually scans: "\n" ++ input, where line
   numbers are counted from -1 so that the artificial first newline brings the first source line to 0. *)
From Coq Require Import List NArith ZArith Bool Lia.
From BP Require Import Base.Chars Model.Blocks.
Import ListNotations.
Local Open Scope Z_scope.

Definition all_ws (s : str) : Prop := Forall (fun c => isspace c = true) s.

Fixpoint count_nl (s : str) : Z :=
  match s with [] => 0 | c :: r => (if (c =? c_nl)%N then 1 else 0) + count_nl r end.

(* tiledL n text items: text = g0 ++ r1 ++ g1 ++ ... ++ rk ++ gk with every gap gi whitespace-only, and the
   line recorded for ri is n + (number of newlines of text before ri); n is the line number "before" text *)
Inductive tiledL : Z -> str -> list (str * Z) -> Prop :=
| tiled_nil n g : all_ws g -> tiledL n g []
| tiled_cons n g r rest items :
    all_ws g -> r <> [] ->
    tiledL (n + count_nl g + count_nl r) rest items ->
    tiledL n (g ++ r ++ rest) ((r, n + count_nl g) :: items).

(* raw text and start line of a block, when present *)
Definition raw_line (b : block) : option (str * Z) :=
  match raw (bhdr b), sl (bhdr b) with Some r, Some l => Some (r, l) | _, _ => None end.

Fixpoint raw_lines (bs : list block) : option (list (str * Z)) :=
  match bs with
  | [] => Some []
  | b :: r => match raw_line b, raw_lines r with Some x, Some xs => Some (x :: xs) | _, _ => None end
  end.

(* the property for one input text *)
Definition tiles_with_true_lines (t : str) (bs : list block) : Prop :=
  exists items, raw_lines bs = Some items /\ tiledL (-1) (c_nl :: t) items.

(* every field of every entry carries a line within its entry's lines (the exact statement
   "the line of an '=' of the entry" is field_line_is_eq_line in Proofs/SplitTiling.v, stated on the machine) *)

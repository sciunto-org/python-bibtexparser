(* C14, the loop through writer and parser:
     parse_string(text, append_middleware=[SeparateCoAuthors(), SplitNameParts()])
     write_string(library, prepend_middleware=[MergeNameParts(), MergeCoAuthors()], bibtex_format=f)
   composed from the engine models: the default stacks and the writer of Model/Pipeline.v, the four name
   middlewares of Model/Names.v lifted to the library by BlockMiddleware.transform (Model/Enclosing.block_mw: one
   Library(blocks=...) per middleware).  Definitions only. *)
From Coq Require Import List NArith ZArith Bool.
From BP Require Import Base.Chars Model.Blocks Model.LibAdd Gen.Constants Model.Lexer Model.Splitter Model.Enclosing
  Model.Writer
  Model.Grammar Model.Pipeline Model.Names Spec.C12 Spec.C05 Spec.C14.
Import ListNotations.

(* ---- the library level *)
Definition nb_res (r : nbres) : Enclosing.res block :=
  match r with NBVal b => Enclosing.Val b | NBRaise c => Enclosing.Raise c | NBSkip => Enclosing.Skip end.

(* one name middleware: blocks = [transform_block(b) for b in library.blocks]; Library(blocks=blocks) *)
Definition name_mw_lib (nf : list str) (mw : nmw) (bs : list block) : Enclosing.res (list block) :=
  block_mw (fun b => nb_res (name_entry nf mw b)) bs.

(* for middleware in stack: library = middleware.transform(library) *)
Definition names_lib (nf : list str) (mws : list nmw) (bs : list block) : Enclosing.res (list block) :=
  fold_left (fun acc mw => match acc with Enclosing.Val l => name_mw_lib nf mw l | o => o end) mws (Enclosing.Val bs).

Definition pres_of {T} (r : Enclosing.res T) : Pipeline.pres T :=
  match r with Enclosing.Val x => PVal x | Enclosing.Raise _ => PRaise | Enclosing.Skip => PSkip end.

(* default parse stack ++ [SeparateCoAuthors; SplitNameParts] *)
Definition parse_names (nf : list str) (t : str) : Pipeline.pres (list block) :=
  match parse_default t with
  | PVal l => pres_of (names_lib nf parse_side l)
  | PRaise => PRaise
  | PSkip => PSkip
  end.

(* [MergeNameParts("last"); MergeCoAuthors] ++ default unparse stack, then the writer *)
Definition write_names (nf : list str) (f : fmt) (l : list block) : Pipeline.pres str :=
  match names_lib nf write_side l with
  | Enclosing.Val l' => write_default f l'
  | Enclosing.Raise _ => PRaise
  | Enclosing.Skip => PSkip
  end.

(* ---- how the splitter reads the braces of a field value: a brace is active unless the character before it is a
        backslash (the look-behind (?<!\\) of the mark regex -- NOT the escape pairs of names.py, for which the
        second backslash of "\\" is consumed).  pb = the previous character is a backslash, d = open braces.
        None: a closing brace at depth 0. *)
Fixpoint bscan (pb : bool) (d : nat) (s : str) : option (bool * nat) :=
  match s with
  | [] => Some (pb, d)
  | c :: r =>
      if negb pb && (c =? c_lb)%N then bscan false (S d) r
      else if negb pb && (c =? c_rb)%N then match d with O => None | S d' => bscan false d' r end
      else bscan (c =? c_bs)%N d r
  end.
(* balanced for the splitter, whatever the last character *)
Definition word_brace_ok (w : str) : bool := match bscan false 0 w with Some (_, O) => true | _ => false end.
(* balanced for the splitter and not ending in a backslash: can stand between '{' and '}' as a field value *)
Definition brace_ok (s : str) : bool := match bscan false 0 s with Some (false, O) => true | _ => false end.

(* ---- the persons of a value as a function, and the text the write side produces for them *)
Definition parts_of (s : str) : list parts :=
  map (fun r => match r with POk p => p | PErr _ => parts0 end) (persons_of s).
Definition remerge (s : str) : str := merge_names (map merge1 (parts_of s)).

(* C14's quantifier on one value (valid names, non-empty last names, no word ending in an odd number of
   backslashes), outside K3 *)
Definition names_in_scope (ps : list parts) : Prop :=
  (exists v, persons_of v = map POk ps) /\ Forall admissible ps /\ known_C14_K3_b ps = false.
(* what the merged text must satisfy to be written between braces and read back as one field value: these are
   assumptions about the input, see Properties/C14.v *)
Definition writable (v' : str) : Prop := brace_ok v' = true /\ noat v' [c_rb] = true.

Definition name_value_ok (s : str) : Prop :=
  persons_of s = map POk (parts_of s) /\ Forall admissible (parts_of s) /\ known_C14_K3_b (parts_of s) = false
  /\ writable (remerge s).
Definition name_value_ok_b (s : str) : bool :=
  forallb (fun r => match r with POk _ => true | PErr _ => false end) (persons_of s)
  && forallb admissible_b (parts_of s) && negb (known_C14_K3_b (parts_of s))
  && brace_ok (remerge s) && noat (remerge s) [c_rb].

(* every name field of every entry is a text satisfying P *)
Definition name_fields_sat (nf : list str) (P : str -> Prop) (c : bcontent) : Prop :=
  match c with
  | KEntry _ _ fs => Forall (fun kv => mem_str (fst kv) nf = true -> exists s, snd kv = VStr s /\ P s) fs
  | _ => True
  end.
Definition name_fields_ok (nf : list str) (c : bcontent) : Prop := name_fields_sat nf name_value_ok c.

(* ---- the frame around the values of one entry (as in C10's frame_ok): a lower-case entry type that is a word and not
        comment / preamble / string, a key and field names made of key characters without '@', the key not ending in a
        backslash *)
Definition no_at (s : str) : bool := forallb (fun c => negb (c =? c_at)%N) s.
Definition entry_frame_ok (t k : str) : bool :=
  typ_ok t && str_eqb (lower t) t
  && negb (starts_with s_comment t) && negb (starts_with s_preamble t) && negb (starts_with s_string t)
  && name_ok k && negb (Grammar.ends_bs false k) && no_at k.
Definition field_key_ok (n : str) : bool := name_ok n && no_at n.

(* a field of the entry: a name field holds names in scope whose merged text is writable; any other field holds a
   writable text *)
Definition entry_field_ok (nf : list str) (f : field) : Prop :=
  field_key_ok (fkey f) = true /\
  exists s, fval f = VStr s /\ if mem_str (fkey f) nf then name_value_ok s else writable s.

(* no two adjacent backslashes: then names.py's escape pairs and the splitter's look-behind read the braces of the
   text alike *)
Fixpoint no_double_bs (t : str) : bool :=
  match t with
  | [] => true
  | c1 :: r => match r with c2 :: _ => negb ((c1 =? c_bs)%N && (c2 =? c_bs)%N) | [] => true end && no_double_bs r
  end.

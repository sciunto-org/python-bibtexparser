(* C19 - An entry behaves like an insertion-ordered mapping of its fields; equality of fields and blocks is structural.
   Only statements here; every proof is `exact <lemma>` (Proofs/EntryProofs.v). *)
From Coq Require Import List ZArith String.
From BP Require Import Model.Blocks Model.Entry Spec.C19 Proofs.EntryProofs.
Import ListNotations.

(* every sequence of set_field, e[k]=v, pop, del e[k], get, in, e[k] on an entry with distinct field keys gives the
   results, and leaves the fields in the order, of an insertion-ordered dictionary given the same calls
   (replace keeps the position, new keys append, removal closes the gap); by induction over the call list *)
Theorem C19_refines : forall ops e, distinct_keys e -> no_reserved ops ->
  snd (run ops e) = snd (run_spec ops (abs e)) /\ abs (fst (run ops e)) = fst (run_spec ops (abs e)).
Proof. exact refines. Qed.
Print Assumptions C19_refines.

(* after any such sequence fields, fields_dict and items() list the same fields in the same order, the keys are
   still distinct, and items() starts with the entry's unchanged type and key *)
Theorem C19_views : forall ops e, distinct_keys e ->
  let e' := fst (run ops e) in
  fields_dict (efields e') = map (fun f => (fkey f, f)) (efields e')
  /\ items e' = (k_entrytype, VStr (etyp e)) :: (k_id, VStr (ekey e)) :: map (fun f => (fkey f, fval f)) (efields e')
  /\ distinct_keys e'.
Proof. exact views. Qed.
Print Assumptions C19_views.

(* e["ENTRYTYPE"] and e["ID"] return the entry's type and key after any calls, whatever the fields are called *)
Theorem C19_reserved : forall ops e,
  getitem (fst (run ops e)) k_entrytype = RVal (VStr (etyp e)) /\ getitem (fst (run ops e)) k_id = RVal (VStr (ekey e)).
Proof. exact reserved. Qed.
Print Assumptions C19_reserved.

(* a == b for entries, strings, preambles and comments holds exactly when they have the same class and the same
   content, attribute by attribute *)
Theorem C19_eq : forall a b, block_modelled a = true -> meta_wf a -> meta_wf b ->
  (block_py_eq a b = true <-> block_same a b).
Proof. exact block_eq_same. Qed.
Print Assumptions C19_eq.

Theorem C19_eq_fields : forall a b, field_modelled a = true -> (field_py_eq a b = true <-> field_same a b).
Proof. exact field_eq_same. Qed.
Print Assumptions C19_eq_fields.

(* == is reflexive on the five non-failed classes, whatever the values are (also outside block_modelled): a copy, which
   the model represents by the same block value, compares equal to its original *)
Theorem C19_eq_copy : forall a, is_failed_class a = false -> meta_wf a -> block_py_eq a a = true.
Proof. exact block_py_eq_refl. Qed.
Print Assumptions C19_eq_copy.

(* "the same value" is plain equality as soon as no bool is involved (Python's 1 == True is the only cross-type case),
   so blocks differing in exactly one attribute are unequal *)
Theorem C19_eq_plain : forall a, value_plain a = true -> forall b, value_plain b = true -> (value_same a b <-> a = b).
Proof. exact value_same_plain. Qed.
Print Assumptions C19_eq_plain.

(* ---- non-vacuity (witnesses defined in Proofs/EntryProofs.v) *)
(* an entry with the keys A, a, ab and eight calls without reserved lookups satisfy the hypotheses *)
Example C19_example_hypotheses : distinct_keys ex_entry /\ no_reserved ex_ops.
Proof. exact example_hypotheses. Qed.
(* replace kept the position of "a", the re-added "A" went to the end, the absent lookup raised KeyError *)
Example C19_example_run :
  map fkey (efields (fst (run ex_ops ex_entry))) = [lit "a"; lit "ab"; lit "A"]
  /\ nth 4 (snd (run ex_ops ex_entry)) RNone = RKeyError
  /\ nth 7 (snd (run ex_ops ex_entry)) RNone = RVal (VStr (lit "new")).
Proof. exact example_run. Qed.
(* a modelled block with metadata: equal to itself, unequal after changing one field value or its type *)
Example C19_example_eq :
  block_modelled (ex_block (VStr (lit "x"))) = true /\ meta_wf (ex_block (VStr (lit "x")))
  /\ block_py_eq (ex_block (VStr (lit "x"))) (ex_block (VStr (lit "x"))) = true
  /\ block_py_eq (ex_block (VStr (lit "x"))) (ex_block (VStr (lit "y"))) = false
  /\ block_py_eq (ex_block (VStr (lit "1"))) (ex_block (VInt 1)) = false.
Proof. exact example_eq. Qed.

(* ================================================================== Field OBJECTS (identity): Model/EntryObj.v *)
(* The theorems above see an entry as a list of field values.  Below, a store maps object ids to the content of Field
   objects, an entry is the list of the ids in its field list, and several entries - and results of earlier get / pop
   calls - may hold the same objects.  Proofs: Proofs/EntryObjProofs.v. *)
From BP Require Import Model.EntryObj Proofs.EntryObjProofs.

(* (a) every sequence of calls on one entry, performed on objects (set_field overwrites the list slot with the given
   object, e[k] = v puts a NEW object there, pop removes the slot and returns the object), read through the store,
   is the value-level run of Model/Entry.v: same final fields in the same order, same results; whatever is read through
   the FINAL store (arguments, results handed out at any earlier time) is what it was at the time of its call.  The
   entry never holds a dangling id, results are objects of the store, and the store only grew. *)
Theorem C19_obj_refines : forall ops s e, ent_ok s e -> ops_ok ops s e ->
  forall s' e' rs, orun ops s e = (s', e', rs) ->
  run (map (abs_op s') ops) (abs_ent s e) = (abs_ent s' e', map (abs_res s') rs)
  /\ ent_ok s' e' /\ Forall (res_ok s') rs /\ store_extends s s'.
Proof. exact obj_refines. Qed.
Print Assumptions C19_obj_refines.

(* one call: the diagram commutes *)
Theorem C19_obj_refines_step : forall s e o s1 e1 r, ent_ok s e -> op_ok s o -> ostep s e o = (s1, e1, r) ->
  step (abs_ent s e) (abs_op s o) = (abs_ent s1 e1, abs_res s1 r)
  /\ ent_ok s1 e1 /\ res_ok s1 r /\ store_extends s s1.
Proof. exact ostep_refines. Qed.
Print Assumptions C19_obj_refines_step.

(* (b) NO call of the mapping interface, on any of several entries sharing any objects, changes an existing Field
   object: the store only grows.  No hypothesis. *)
Theorem C19_obj_store_frame : forall cs w i, In i (sdom (wstore w)) ->
  In i (sdom (wstore (fst (wrun cs w)))) /\ slookup (wstore (fst (wrun cs w))) i = slookup (wstore w) i.
Proof. exact store_frame. Qed.
Print Assumptions C19_obj_store_frame.

(* (c) whatever calls are made on OTHER entries, an entry b that is not called keeps the same objects in the same
   order and shows exactly what it showed (fields, fields_dict, items(), get, in, [] for every key), whatever objects
   it shares with the entries called; and every Field object that existed before (e.g. one handed out by an earlier
   get) shows what it showed *)
Theorem C19_obj_other_entries : forall cs w b e, nth_error (wents w) b = Some e -> ent_ok (wstore w) e ->
  (forall c, In c cs -> fst c <> b) ->
  let w' := fst (wrun cs w) in
  nth_error (wents w') b = Some e
  /\ shows_same (wstore w) (wstore w') e
  /\ (forall i, In i (sdom (wstore w)) -> sget (wstore w') i = sget (wstore w) i).
Proof. exact other_entries. Qed.
Print Assumptions C19_obj_other_entries.

(* (a) + (c) in one statement: a program over several entries sharing objects is, read through the store, the same
   program over INDEPENDENT value-level entries (vstep touches only the entry called) *)
Theorem C19_obj_world_refines : forall cs w, world_ok w -> wops_ok cs w ->
  forall w' rs, wrun cs w = (w', rs) ->
  vrun (map (abs_wop (wstore w')) cs) (abs_world w) = (abs_world w', map (abs_res (wstore w')) rs)
  /\ world_ok w' /\ Forall (res_ok (wstore w')) rs /\ store_extends (wstore w) (wstore w').
Proof. exact world_refines. Qed.
Print Assumptions C19_obj_world_refines.

(* ---- non-vacuity (witnesses in Proofs/EntryObjProofs.v) *)
(* two worlds of two entries: in ex_world B gets A's title object through get / set_field, in ex_world2 B was built
   from list(A.fields) and holds both of A's objects *)
Example C19_obj_example_hypotheses :
  world_ok ex_world /\ wops_ok ex_wops ex_world /\ world_ok ex_world2 /\ wops_ok ex_wops2 ex_world2.
Proof. exact example_obj_hypotheses. Qed.
(* f = A.get("title"); B.set_field(f); A["title"] = "X": A has a new object 4 in the slot of 1, B holds object 1 and
   B["title"] is still "T", A["title"] is "X", f still shows "T" *)
Example C19_obj_example_run :
  let w' := fst (wrun ex_wops ex_world) in
  map oids (wents w') = [[4; 2]; [1]]
  /\ snd (wrun ex_wops ex_world) = [OObj 1; ONone; ONone; OVal (VStr (lit "T")); OVal (VStr (lit "X"))]
  /\ sget (wstore w') 1 = mkfield (lit "title") (VStr (lit "T")) (Some 2%Z)
  /\ sget (wstore w') 4 = mkfield (lit "title") (VStr (lit "X")) None.
Proof. exact example_obj_run. Qed.
(* item assignment on A: B, which shares both objects, reads as before; A does not *)
Example C19_obj_example_shared :
  let w' := fst (wrun ex_wops2 ex_world2) in
  nth_error (abs_world ex_world2) 1 = Some (abs_ent ex_store (mkoent (lit "book") (lit "b") [1; 2]))
  /\ nth_error (abs_world w') 1 = nth_error (abs_world ex_world2) 1
  /\ nth_error (abs_world w') 0 <> nth_error (abs_world ex_world2) 0.
Proof. exact example_obj_shared. Qed.
(* which change of the code (c) excludes: item assignment that writes the value into the Field object found in the slot
   (ostep_inplace) changes the entry that was not called and the object handed out before - on the same example *)
Example C19_obj_inplace_refuted :
  exists cs w b e, world_ok w /\ wops_ok cs w /\ nth_error (wents w) b = Some e /\ (forall c, In c cs -> fst c <> b)
    /\ abs_ent (wstore (fst (wrun_inplace cs w))) e <> abs_ent (wstore w) e
    /\ exists i, In i (sdom (wstore w)) /\ sget (wstore (fst (wrun_inplace cs w))) i <> sget (wstore w) i.
Proof. exact obj_inplace_refuted. Qed.

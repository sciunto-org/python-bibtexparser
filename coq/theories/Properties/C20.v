(* C20 - Entry points apply exactly the requested middleware stack, in order.
   Only statements here; the proofs are in Proofs/StackProofs.v, TextIOProofs.v, TextIOChunks.v, TextIOBytes.v and
   WriterNoCR.v.  Middlewares are arbitrary
   (any type M with any  apply : M -> lib -> res lib); the splitter, the codec (decode) and the sinks
   (write_path, write_obj) are arbitrary too: they are the runtime's and enter as oracles (partial, DESIGN C20 Limits).
   The last section gives the codec oracle a body for three of the property's four encodings: Model/TextIO.v models what
   open(path, encoding=e).read() and open(path, "w").write(s) do to bytes and text for utf-8, latin-1 and utf-16 (strict
   codecs, byte order mark, universal newlines), compared with CPython on every run; the theorems C20_text_* say what
   the file layer preserves and what it does not (gbk, a table, stays an oracle).
   [in_order] (Spec/C20.v) is "each middleware applied to the result of the one before, left to right". *)
From Coq Require Import String List NArith ZArith Bool.
From BP Require Import Base.Chars Model.Blocks Model.Writer Model.Stack Spec.C20 Proofs.StackProofs Model.TextIO
  Proofs.TextIOProofs Proofs.TextIOChunks Proofs.TextIOBytes Proofs.WriterNoCR.
Import ListNotations.

(* parse_string = splitting, then exactly the given parse_stack in the given order, or the default stack followed by
   append_middleware in order; both given: ValueError; the entry point's loop is the left-to-right composition *)
Theorem C20_parse : forall (M : Type) (apply : M -> lib -> res lib) (default_parse : list M) (split : str -> res lib) t l,
  split t = Val l ->
  (forall ps, parse_string M apply default_parse split t (Some ps) None = in_order M apply ps l)
  /\ (forall am, parse_string M apply default_parse split t None (Some am)
                 = bind (in_order M apply default_parse l) (in_order M apply am))
  /\ parse_string M apply default_parse split t None None = in_order M apply default_parse l
  /\ (forall ps am, parse_string M apply default_parse split t (Some ps) (Some am) = Raise EValueError).
Proof. exact parse_clauses. Qed.
Print Assumptions C20_parse.

Theorem C20_stack_order : forall (M : Type) (apply : M -> lib -> res lib) a b l,
  run_mws M apply (a ++ b) l = bind (in_order M apply a l) (in_order M apply b)
  /\ run_mws M apply a l = in_order M apply a l.
Proof. exact (fun M apply a b l => conj (eq_trans (run_mws_in_order M apply (a ++ b) l) (in_order_app M apply a b l))
                                        (run_mws_in_order M apply a l)). Qed.
Print Assumptions C20_stack_order.

(* write_string = prepend_middleware in order, then the default unparse stack (or exactly the given unparse_stack),
   then the writer under the given (or default) format; both given: ValueError *)
Theorem C20_write : forall (M : Type) (apply : M -> lib -> res lib) (default_unparse : list M) l f,
  (forall us, write_string M apply default_unparse l (Some us) None f = bind (in_order M apply us l) (write (the_fmt f)))
  /\ (forall pm, write_string M apply default_unparse l None (Some pm) f
                 = bind (bind (in_order M apply pm l) (in_order M apply default_unparse)) (write (the_fmt f)))
  /\ write_string M apply default_unparse l None None f = bind (in_order M apply default_unparse l) (write (the_fmt f))
  /\ (forall us pm, write_string M apply default_unparse l (Some us) (Some pm) f = Raise EValueError).
Proof. exact write_clauses. Qed.
Print Assumptions C20_write.

(* parse_file(path, encoding) = parse_string of the decoded content; write_file hands exactly the text of write_string
   (same stack arguments, same format) to the sink, for a path and for a file object *)
Theorem C20_files : forall (M : Type) (apply : M -> lib -> res lib) (default_parse default_unparse : list M)
    (split : str -> res lib) (path enc world fobj : Type) (decode : path -> enc -> res str)
    (write_path : world -> path -> str -> res world) (write_obj : world -> fobj -> str -> res world),
  (forall p e ps am,
      parse_file M apply default_parse split path enc decode p e ps am
      = bind (decode p e) (fun t => parse_string M apply default_parse split t ps am))
  /\ (forall w tgt l ps am f,
      write_file M apply default_unparse path world fobj write_path write_obj w tgt l ps am f
      = bind (write_string M apply default_unparse l ps am f) (sink path world fobj write_path write_obj w tgt))
  /\ (forall w tgt l f s, write_string M apply default_unparse l None None f = Val s ->
      write_file M apply default_unparse path world fobj write_path write_obj w tgt l None None f
      = sink path world fobj write_path write_obj w tgt s)
  /\ (forall w tgt l us f,
      write_file M apply default_unparse path world fobj write_path write_obj w tgt l (Some us) None f
      = bind (bind (in_order M apply us l) (write (the_fmt f))) (sink path world fobj write_path write_obj w tgt))
  /\ (forall w tgt l pm f,
      write_file M apply default_unparse path world fobj write_path write_obj w tgt l None (Some pm) f
      = bind (bind (bind (in_order M apply pm l) (in_order M apply default_unparse)) (write (the_fmt f)))
             (sink path world fobj write_path write_obj w tgt)).
Proof. exact files_clauses. Qed.
Print Assumptions C20_files.

(* a block middleware's per-block results replace the blocks in place: the new library is Library(concatenation, in block
   order, of what each result stands for: nothing for None / an empty collection, the block, the blocks of a collection);
   as soon as one result is anything else, or a collection with a non-block, TypeError; every result is one or the other *)
Theorem C20_splice : forall f l,
  (forall reps, Forall2 legal (map f l) reps -> block_transform f l = Val (library_of (concat reps)))
  /\ (Exists illegal (map f l) -> block_transform f l = Raise ETypeError)
  /\ (forall r, (exists bs, legal r bs) \/ illegal r).
Proof. exact (fun f l => conj (block_transform_legal f l) (conj (block_transform_illegal f l) legal_or_illegal)). Qed.
Print Assumptions C20_splice.

(* Library(blocks) keeps every block at its position, as it is or wrapped as a duplicate of an earlier same-kind key *)
Theorem C20_library : forall bs,
  Forall2 same_or_wrapped bs (library_of bs) /\ List.length (library_of bs) = List.length bs.
Proof. exact (fun bs => conj (library_of_shape bs) (library_of_length bs)). Qed.
Print Assumptions C20_library.

(* blocks of the failed classes never reach a handler: they are kept *)
Theorem C20_dispatch : forall fe fs fp fx fi b, is_failed_class b = true -> transform_block fe fs fp fx fi b = RBlock b.
Proof. exact transform_block_other. Qed.
Print Assumptions C20_dispatch.

(* non-vacuity: the probes are order-sensitive, and the statements above distinguish the orders *)
Definition ex_lib : lib := [BEntry hdr0 (lit "article") (lit "k") []; BExpl hdr0 (lit "c")].
Definition ex_apply := apply_mw (fun _ l => Val l).
Example C20_example_order :
  in_order mw ex_apply [MLibTag 1; MLibTag 2] ex_lib <> in_order mw ex_apply [MLibTag 2; MLibTag 1] ex_lib
  /\ parse_string mw ex_apply [MLibTag 7] (fun _ => Val ex_lib) [] None (Some [MLibTag 1; MLibTag 2])
     = in_order mw ex_apply [MLibTag 7; MLibTag 1; MLibTag 2] ex_lib.
Proof. split; [vm_compute; discriminate | reflexivity]. Qed.

Example C20_example_splice :
  let new := BImpl hdr0 (lit "n") in
  let f := fun b => match b with BEntry _ _ _ _ => RColl [IBlock b; IBlock new] | _ => RNone end in
  Forall2 legal (map f ex_lib) [[BEntry hdr0 (lit "article") (lit "k") []; new]; []]
  /\ block_transform f ex_lib = Val [BEntry hdr0 (lit "article") (lit "k") []; new]
  /\ Exists illegal (map (fun b => match b with BExpl _ _ => RColl [IBlock b; INonBlock] | _ => RBlock b end) ex_lib).
Proof.
  cbn zeta. split; [|split].
  - repeat constructor. apply (Lg_coll [BEntry hdr0 (lit "article") (lit "k") []; BImpl hdr0 (lit "n")]).
  - reflexivity.
  - apply Exists_cons_tl. apply Exists_cons_hd. right. eexists. split; [reflexivity | right; left; reflexivity].
Qed.

(* the text layer under parse_file / write_file (Model/TextIO.v), for files and texts of ANY length.  [write_text e] is
   open(path, "w", encoding=e); write_file passes no encoding, so its file is read back by parse_file(path, e) as below
   when e is the locale's encoding *)
Local Open Scope Z_scope.

(* what write_file wrote, parse_file reads back - up to universal newlines: the text handed to parse_string is
   nl_read of the text write_string returned; identical when the text holds no carriage return *)
Theorem C20_text_write_then_read : forall e s bs, write_text e s = Some bs -> read_text e bs = Some (nl_read s).
Proof. exact write_then_read. Qed.
Print Assumptions C20_text_write_then_read.

Theorem C20_text_file_transparent : forall e s bs, no_cr s = true -> write_text e s = Some bs -> read_text e bs = Some s.
Proof. exact file_transparent. Qed.
Print Assumptions C20_text_file_transparent.

(* ... and NOT otherwise: a carriage return inside a value does not survive write_file -> parse_file (it comes back as
   a line feed); parse_file never hands a carriage return to the splitter *)
Theorem C20_text_cr_not_preserved : exists s bs, write_text Utf8 s = Some bs /\ read_text Utf8 bs <> Some s.
Proof. exact file_not_transparent_cr. Qed.
Print Assumptions C20_text_cr_not_preserved.
Theorem C20_text_read_no_cr : forall e bs s, read_text e bs = Some s -> no_cr s = true.
Proof. exact read_no_cr. Qed.
Print Assumptions C20_text_read_no_cr.

(* the strict decoders accept exactly one spelling of each text: utf-8 no overlong form, no surrogate, nothing above
   U+10FFFF; utf-16 the mark and then the encoder's units in the announced order.  Hence decoding is injective on the
   bytes it accepts (per byte order); parse_file is not, because of universal newlines
   (C20_text_utf8_read_not_injective_with_cr) *)
Theorem C20_text_utf8_canonical : forall bs s, utf8_decode bs = Some s -> utf8_encode s = Some bs.
Proof. exact utf8_canonical. Qed.
Print Assumptions C20_text_utf8_canonical.
Theorem C20_text_utf8_injective : forall b1 b2 s, utf8_decode b1 = Some s -> utf8_decode b2 = Some s -> b1 = b2.
Proof. exact utf8_decode_injective. Qed.
Print Assumptions C20_text_utf8_injective.
Theorem C20_text_utf16_canonical : forall bs s, bytes_ok bs = true -> utf16_decode bs = Some s ->
  exists us, units_encode s = Some us /\
             ((bs = [] /\ us = []) \/ bs = 255 :: 254 :: bytes_le us \/ bs = 254 :: 255 :: bytes_be us).
Proof. exact utf16_canonical. Qed.
Print Assumptions C20_text_utf16_canonical.
(* latin-1 decodes every byte sequence, to itself *)
Theorem C20_text_latin1_total : forall bs, latin1_decode bs = Some bs.
Proof. exact latin1_decode_total. Qed.
Print Assumptions C20_text_latin1_total.

(* which texts write_file can write: every text of scalar values under utf-8 (bytes in range), none with a lone
   surrogate (UnicodeEncodeError) *)
Theorem C20_text_write_total_utf8 : forall s, scalars s = true -> exists bs, write_text Utf8 s = Some bs /\ bytes_ok bs = true.
Proof. exact write_total_utf8. Qed.
Print Assumptions C20_text_write_total_utf8.
Theorem C20_text_write_refuses_surrogates : forall s, scalars s = false -> write_text Utf8 s = None.
Proof. exact write_refuses_surrogates_utf8. Qed.
Print Assumptions C20_text_write_refuses_surrogates.

(* open() reads and decodes a file in chunks; the model decodes it at once.  That is the same thing: decoding is compositional
   at character boundaries, newline translation wherever the cut does not follow a carriage return (where CPython's incremental
   newline decoder keeps a pending character) - and only there *)
Theorem C20_text_utf8_chunks : forall a b s, utf8_decode a = Some s ->
  utf8_decode (a ++ b) = option_map (app s) (utf8_decode b).
Proof. exact utf8_decode_app. Qed.
Print Assumptions C20_text_utf8_chunks.
Theorem C20_text_newline_chunks : forall a b, ends_in_cr a = false -> nl_read (a ++ b) = nl_read a ++ nl_read b.
Proof. exact nl_read_app. Qed.
Print Assumptions C20_text_newline_chunks.
Theorem C20_text_newline_chunks_refuted_at_cr : nl_read ([97; 13] ++ [10; 98]) <> nl_read [97; 13] ++ nl_read [10; 98].
Proof. exact nl_read_app_refuted_at_cr. Qed.
Print Assumptions C20_text_newline_chunks_refuted_at_cr.
Theorem C20_text_read_chunks : forall a b s t, utf8_decode a = Some s -> utf8_decode b = Some t -> ends_in_cr s = false ->
  read_text Utf8 (a ++ b) = option_map (app (nl_read s)) (read_text Utf8 b).
Proof. exact (fun a b s t Ha _ Hc => read_text_utf8_app a b s Ha Hc). Qed.
Print Assumptions C20_text_read_chunks.

(* the same on the writing side: a text handed to file.write in several pieces arrives as the encoding of the whole text
   (utf-16: ONE byte order mark, then the units of the pieces one after the other) *)
Theorem C20_text_write_pieces_utf8 : forall s t, utf8_encode (s ++ t) = oapp (utf8_encode s) (utf8_encode t).
Proof. exact utf8_encode_app. Qed.
Print Assumptions C20_text_write_pieces_utf8.
Theorem C20_text_write_pieces_latin1 : forall s t, latin1_encode (s ++ t) = oapp (latin1_encode s) (latin1_encode t).
Proof. exact latin1_encode_app. Qed.
Print Assumptions C20_text_write_pieces_latin1.
Theorem C20_text_write_pieces_utf16 : forall s t a b, units_encode s = Some a -> units_encode t = Some b ->
  utf16_encode (s ++ t) = Some (255 :: 254 :: bytes_le a ++ bytes_le b).
Proof. exact utf16_encode_pieces. Qed.
Print Assumptions C20_text_write_pieces_utf16.

(* the other direction, at the level of bytes: a utf-8 file without a carriage-return byte that parse_file accepts is reproduced
   byte for byte when the text that was read is written again; reading is injective on such files - and not on files with
   carriage returns (CR LF, CR and LF files read as the same text) *)
Theorem C20_text_utf8_file_fixpoint : forall bs s, no_cr_byte bs = true -> read_text Utf8 bs = Some s -> write_text Utf8 s = Some bs.
Proof. exact utf8_file_fixpoint. Qed.
Print Assumptions C20_text_utf8_file_fixpoint.
Theorem C20_text_utf8_read_injective : forall b1 b2 s, no_cr_byte b1 = true -> no_cr_byte b2 = true ->
  read_text Utf8 b1 = Some s -> read_text Utf8 b2 = Some s -> b1 = b2.
Proof. exact utf8_read_injective. Qed.
Print Assumptions C20_text_utf8_read_injective.
Theorem C20_text_utf8_read_not_injective_with_cr :
  read_text Utf8 [97; 13; 10] = read_text Utf8 [97; 10] /\ read_text Utf8 [97; 13] = read_text Utf8 [97; 10].
Proof. exact utf8_read_not_injective_with_cr. Qed.
Print Assumptions C20_text_utf8_read_not_injective_with_cr.

(* END TO END, writer model + text layer: what write_file puts into a file for a library without carriage returns, under a format
   without carriage returns, comes back from the file exactly - the code points of the text the writer model produces
   (cps: the code of every model character) survive every modelled codec that can encode them.  The premise is on the
   LIBRARY and the FORMAT, not on the written text: C06_write_no_cr carries it across the writer. *)
Theorem C20_text_written_library_survives_the_file : forall f bs s e bytes,
  fmt_ok f = true -> forallb block_ok bs = true -> write f bs = Val s ->
  write_text e (cps s) = Some bytes -> read_text e bytes = Some (cps s).
Proof. exact written_library_survives_the_file. Qed.
Print Assumptions C20_text_written_library_survives_the_file.

(* non-vacuity: a document with a non-ASCII letter, an astral character and a CRLF line end, through each codec *)
Example C20_text_example :
  let s := [64; 97; 123; 233; 44; 13; 10; 128512; 125] in
  read_text Utf8 [64; 97; 123; 195; 169; 44; 13; 10; 240; 159; 152; 128; 125] = Some [64; 97; 123; 233; 44; 10; 128512; 125]
  /\ write_text Utf16 s = Some [255; 254; 64; 0; 97; 0; 123; 0; 233; 0; 44; 0; 13; 0; 10; 0; 61; 216; 0; 222; 125; 0]
  /\ read_text Utf16 [254; 255; 0; 64; 216; 61; 222; 0] = Some [64; 128512]
  /\ read_text Utf16 [64; 0] = None                                  (* no byte order mark *)
  /\ read_text Utf8 [192; 128] = None /\ read_text Utf8 [237; 160; 128] = None   (* overlong; surrogate *)
  /\ write_text Latin1 s = None /\ read_text Latin1 [233; 13] = Some [233; 10].
Proof. cbn zeta. repeat split; vm_compute; reflexivity. Qed.

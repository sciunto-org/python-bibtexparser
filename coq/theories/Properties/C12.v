(* C12 - co-author splitting loses nothing and splits only at top-level ' and '.
   Only statements here; proofs in Proofs/NamesExactProofs.v (conservation, exactness) and NamesIdemProofs.v
   (idempotence).

   Proved: conservation and idempotence under merge + split for ALL strings; for ALL brace-balanced strings the exact
   separator rule (equality with the independent word-level reference splitter) and the protection corollary.
   Idempotence for all strings (C12_idempotent_all, Proofs/NamesIdemProofs.v) is a direct simulation argument on
   the machine (no reference splitter): the machine's treatment of a stray '}' right after a separator has no
   word-level counterpart, but after the canonical " and " it is processed from the same state as after the
   original separator. *)
From Coq Require Import List NArith ZArith Bool String.
Local Open Scope string_scope.
From BP Require Import Model.Blocks Model.Names Spec.C12 Proofs.NamesExactProofs Proofs.NamesIdemProofs.
Import ListNotations.

(* for EVERY string (balanced or not, any characters): the stripped text is exactly
     piece_1 sep_1 piece_2 ... sep_(n-1) piece_n,   every sep = whitespace+ a|A n|N d|D whitespace+,  pieces non-empty;
   so pieces are contiguous, in order, and together with the separators account for every character *)
Theorem C12_conservation : forall s, conserved s (split_names s).
Proof. exact split_conserved. Qed.
Print Assumptions C12_conservation.

(* for EVERY brace-balanced string the pieces are exactly those of the word-level reference splitter: cut the text
   into top-level words (whitespace = space, tab, CR, LF at brace depth 0 outside escape pairs; '~' is not whitespace);
   a word 'and' (any letter case) closes the current piece iff the piece is non-empty and a further word follows *)
Theorem C12_exact : forall s, balanced (strip4 s) = true -> split_names s = ref_split s.
Proof. exact split_exact. Qed.
Print Assumptions C12_exact.

(* text inside braces, escape pairs and '~'-joined words never split: if no character of the text is a separator
   character (depth-0 unescaped whitespace), the whole text is one piece *)
Theorem C12_protected : forall s, balanced (strip4 s) = true -> strip4 s <> [] ->
  Forall (fun x => snd x = false) (marks (strip4 s)) -> split_names s = [strip4 s].
Proof. exact protected_never_splits. Qed.
Print Assumptions C12_protected.

(* merging the pieces with " and " and splitting again gives the same pieces (brace-balanced text) *)
Theorem C12_idempotent : forall s, balanced (strip4 s) = true -> idempotent_on s.
Proof. intros s _. apply split_idempotent_all. Qed.
Print Assumptions C12_idempotent.

(* the same for EVERY string (unbalanced braces, stray '}', trailing backslash, any characters): merging the pieces
   with " and " and splitting again returns the same pieces *)
Theorem C12_idempotent_all : forall s, idempotent_on s.
Proof. exact split_idempotent_all. Qed.
Print Assumptions C12_idempotent_all.

(* ---- non-vacuity / instances *)
Example C12_example_split :
  split_names (lit " Donald E. Knuth  and   Leslie {Lamport and Co} AND \'Etienne~and~B and  ")
  = [lit "Donald E. Knuth"; lit "Leslie {Lamport and Co}"; lit "\'Etienne~and~B and"].
Proof. vm_compute. reflexivity. Qed.

Example C12_example_balanced :
  let s := lit "A and {B and C} and D\ and E" in
  balanced (strip4 s) = true /\ ref_split s = [lit "A"; lit "{B and C}"; lit "D\ and E"].
Proof. vm_compute. split; reflexivity. Qed.

Example C12_example_protected :
  let s := lit "{Simon and Schuster}~and~\ Co" in
  balanced (strip4 s) = true /\ Forall (fun x => snd x = false) (marks (strip4 s)).
Proof.
  intros s. split; [vm_compute; reflexivity|]. apply Forall_forall. intros x Hx. apply negb_true_iff.
  revert x Hx. apply (forallb_forall (fun x => negb (snd x))). vm_compute. reflexivity.
Qed.

Example C12_example_idempotent :
  idempotent_on (lit "X and and Y and {and} AND Z and") /\ idempotent_on (lit "A } and { B").
Proof. split; vm_compute; reflexivity. Qed.

(* unbalanced instances of C12_idempotent_all: the hypothesis of C12_idempotent fails, the pieces are non-trivial *)
Example C12_example_idempotent_all :
  let s1 := lit "A  and } AND  B and }C aNd D" in
  let s2 := lit "{ and A and B" in
  let s3 := lit "A} and {B and C\\" in
  balanced (strip4 s1) = false /\ split_names s1 = [lit "A  and }"; lit "B and }C"; lit "D"]
  /\ balanced (strip4 s2) = false /\ split_names s2 = [lit "{ and A and B"]
  /\ balanced (strip4 s3) = false /\ split_names s3 = [lit "A}"; lit "{B and C\\"].
Proof. vm_compute. repeat split. Qed.

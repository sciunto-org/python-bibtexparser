(* C16 - Block sorting is a stable permutation by (type rank, key) keeping comment runs attached.
   Only statements here; each proof applies lemmas of Proofs/SortBlocksProofs.v.
   Model: Model/SortBlocks.v (sort_transform = SortBlocksByTypeAndKeyMiddleware.transform(library).blocks, including the
   re-adding of the sorted blocks by Library(blocks=...), Model/LibRebuild.v).  Readable specs: Spec/C16.v.
   [lib_ok bs] is the invariant every Library maintains (no two live entries / strings share a key); order lists are
   arbitrary lists of class codes (any sub-permutation, any length, duplicates, classes no block has).
   CPython's list.sort is modelled by insertion sort; C16_sort_contract shows that ANY function meeting the
   stable-sort contract yields the same library.  "The input library is unchanged" is a heap-level statement (C07);
   here the input is a value and cannot change; the harness oracle checks it on the implementation. *)
From Coq Require Import String List NArith ZArith Permutation Sorted.
From BP Require Import Model.Blocks Model.LibRebuild Model.SortBlocks Spec.C16 Proofs.SortBlocksProofs.
Import ListNotations.

(* exactly the input blocks: none lost, duplicated or altered (and none wrapped again by the rebuilt Library) *)
Theorem C16_permutation : forall preserve order bs, lib_ok bs -> Permutation (sort_transform preserve order bs) bs.
Proof. intros p o bs H. apply sort_transform_as_sorted; [exact H | apply sorted_blocks_perm]. Qed.
Print Assumptions C16_permutation.

(* the output is the concatenation of the input's units (single blocks, or comment run + block below it), rearranged
   so that (rank of the type in the order, key) never decreases, and units with equal (rank, key) keep their
   original relative order -- C16_sorted and C16_stable are the last two conjuncts of sort_spec *)
Theorem C16_sorted_stable : forall preserve order bs, lib_ok bs -> sort_spec preserve order bs (sort_transform preserve order bs).
Proof. intros p o bs H. apply sort_transform_as_sorted; [exact H | apply sorted_blocks_spec]. Qed.
Print Assumptions C16_sorted_stable.

Theorem C16_sorted : forall preserve order bs, lib_ok bs -> sorted_spec preserve order bs (sort_transform preserve order bs).
Proof. intros p o bs H. apply sort_transform_as_sorted; [exact H | apply sort_spec_sorted, sorted_blocks_spec]. Qed.
Print Assumptions C16_sorted.

Theorem C16_stable : forall preserve order bs, lib_ok bs -> stable_spec preserve order bs (sort_transform preserve order bs).
Proof. intros p o bs H. apply sort_transform_as_sorted; [exact H | apply sort_spec_stable, sorted_blocks_spec]. Qed.
Print Assumptions C16_stable.

(* the same without comment preservation, said on blocks directly *)
Theorem C16_sorted_stable_blocks : forall order bs, lib_ok bs -> plain_sort_spec order bs (sort_transform false order bs).
Proof. intros o bs H. apply sort_transform_as_sorted; [exact H | apply plain_sorted_spec]. Qed.
Print Assumptions C16_sorted_stable_blocks.

(* rank: first index of the block's exact class in the order; unlisted classes get the length of the order (last) *)
Theorem C16_rank : forall c order,
  (In c order -> nth_error order (rank_in c order) = Some c /\ forall j, j < rank_in c order -> nth_error order j <> Some c)
  /\ (~ In c order <-> rank_in c order = length order)
  /\ rank_in c order <= length order.
Proof. exact rank_meaning. Qed.
Print Assumptions C16_rank.

(* with comment preservation every run of comments directly above a non-comment block stays directly above it *)
Theorem C16_comments : forall order bs, lib_ok bs -> comments_attached bs (sort_transform true order bs).
Proof. intros o bs H. apply sort_transform_as_sorted; [exact H | apply sorted_blocks_comments]. Qed.
Print Assumptions C16_comments.

(* the units of a library are determined by the library, and the contract determines the output *)
Theorem C16_sort_contract : forall preserve order bs out, lib_ok bs ->
  sort_spec preserve order bs out -> out = sort_transform preserve order bs.
Proof. intros p o bs out H S. apply sort_transform_as_sorted; [exact H | apply sort_spec_unique, S]. Qed.
Print Assumptions C16_sort_contract.

(* Library(blocks=...) adds the sorted blocks as they are, and the result satisfies the library invariant again *)
Theorem C16_rebuild : forall preserve order bs, lib_ok bs ->
  sort_transform preserve order bs = sorted_blocks preserve order bs /\ lib_ok (sort_transform preserve order bs).
Proof. exact sort_transform_ok. Qed.
Print Assumptions C16_rebuild.

(* ---- non-vacuity *)
Definition h (n : Z) : hdr := mkhdr (Some n) None [].
Definition ex_lib : list block :=
  [BImpl (h 0) (lit "c0"); BEntry (h 1) (lit "article") (lit "b") []; BExpl (h 2) (lit "c2"); BImpl (h 3) (lit "c3");
   BString (h 4) (lit "a") (VStr (lit "x")); BFailed (h 5) (EOther 0); BEntry (h 6) (lit "article") (lit "a") [];
   BDupKey (h 7) (lit "b") (BEntry (h 1) (lit "article") (lit "b") []) (BEntry (h 7) (lit "misc") (lit "b") []);
   BExpl (h 8) (lit "c8")]%string.

Example C16_example_lib_ok : lib_ok ex_lib.
Proof. split; vm_compute; repeat constructor; simpl; intuition discriminate. Qed.

(* default order String, Preamble, Entry, ImplicitComment, ExplicitComment = codes 1 2 0 4 3 *)
Example C16_example_preserve :
  map (fun b => sl (bhdr b)) (sort_transform true [1; 2; 0; 4; 3]%N ex_lib)
  = map Some [2; 3; 4; 6; 0; 1; 8; 5; 7]%Z.
Proof. vm_compute. reflexivity. Qed.

Example C16_example_plain :
  map (fun b => sl (bhdr b)) (sort_transform false [0]%N ex_lib)
  = map Some [6; 1; 0; 2; 3; 5; 8; 4; 7]%Z.
Proof. vm_compute. reflexivity. Qed.

Example C16_example_units :
  units_of ex_lib (map jblocks (block_junks ex_lib)) /\ length (block_junks ex_lib) = 6.
Proof. split; [exact (junks_units ex_lib) | vm_compute; reflexivity]. Qed.

(* ---- "the input library is left unchanged" (heap level; the framework model of C07): SortBlocksByTypeAndKey deep-copies
   the block list and builds a new library for EVERY permutation the sort may apply - every pre-existing object is
   unchanged and nothing reachable from the result is a pre-existing object.  Stated with the executable deep copy
   (an instance of the contract assumed of copy.deepcopy: C07_deepcopy_exec_contract). *)
From BP Require Import Model.Heap Model.HeapMw Proofs.HeapProofs Proofs.HeapCopyTotal.
Theorem C16_input_kept : forall perm h lib h' lib', wf_heap h -> In lib (dom h) ->
  sort_blocks_mw deepcopy_exec perm h lib = Some (h', lib') ->
  unchanged h h' /\ (forall p, reach h' lib' p -> ~ In p (dom h)).
Proof.
  intros perm h lib h' lib' W L E.
  destruct (sort_blocks_ok deepcopy_exec deepcopy_exec_contract perm h lib h' lib' W L E) as (_ & _ & U & S).
  split; [exact U | exact S].
Qed.
Print Assumptions C16_input_kept.

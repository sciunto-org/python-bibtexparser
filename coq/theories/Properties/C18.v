(* C18 - LaTeX en/decoding touches only text values, round-trips, and contains errors: THE WRAPPER
   (_PyStringTransformerMiddleware) for an ARBITRARY converter [conv : str -> str * str] (value, error message).
   Only statements here; the proofs are in Proofs/LatexProofs.v and Proofs/LatexRulesProofs.v.
   PARTIAL CLAIM: pylatexenc (its conversion table, its LaTeX parser) is not modelled.  The round-trip clause of the property is
   proved only conditionally (C18_roundtrip_conditional); its hypothesis is validated by testing (harness/props/c18.py, stream
   `roundtrip`), with known findings K5, K6 and K12.  The ENCODER RULES that latex_encoding.py configures (keep_math,
   enclose_urls, then defaults) ARE modelled (Model/LatexRules.v, compared with LatexEncodingMiddleware on every run, op 121);
   the theorems about them are at the end of this file - among them the root causes of K5 and K6. *)
From Coq Require Import List NArith ZArith Bool String.
From BP Require Import Base.Chars Model.Blocks Model.LatexWrap Spec.C18 Proofs.LibAddProofs Proofs.LatexProofs.
Import ListNotations.

(* the whole wrapper in one equation: every visited text s (Spec.C18.visited: str field values; the parts of a NameParts
   held directly, in the order first, last, von, jr; str @string values) is replaced by fst (conv s) and nothing else
   changes; the block is wrapped into a middleware-error block iff some message is non-empty; the reasons are the
   non-empty messages in visiting order.  No exception: the function is total. *)
Theorem C18_wrapper : forall conv b,
  latex_block conv b =
  let p := map_block (fun s => fst (conv s)) b in
  let errs := filter nonempty (map (fun s => snd (conv s)) (visited b)) in
  (match errs with [] => p | _ => error_block p end, errs).
Proof. exact latex_block_eq. Qed.
Print Assumptions C18_wrapper.

(* scope and types: the result is the block itself or an error block around it, equal to the input except for str field
   values, NameParts strings and str @string values - which stay strings; keys, types, header, other values, other blocks equal *)
Theorem C18_scope : forall conv b, exists p, bscope b p
  /\ (fst (latex_block conv b) = p \/ fst (latex_block conv b) = BMwErr (mkhdr (sl (bhdr b)) (raw (bhdr b)) []) EPartial p).
Proof. exact latex_scope. Qed.
Print Assumptions C18_scope.

Theorem C18_types : forall f b, bscope b (map_block f b).
Proof. exact map_block_scope. Qed.
Print Assumptions C18_types.

(* the abstract wrapper, for an arbitrary _transform_python_value_string: an error block iff some message is non-empty *)
Theorem C18_wrapper_errors : forall conv b,
  (exists s, In s (visited b) /\ snd (conv s) <> [])
  <-> fst (latex_block conv b) = error_block (map_block (fun s => fst (conv s)) b) /\ snd (latex_block conv b) <> [].
Proof. exact latex_errors_iff. Qed.
Print Assumptions C18_wrapper_errors.

(* error containment with the shipped try/except around ANY third-party converter f (f s = Conv text, or Fail: an
   exception with its message and its class name): EVERY failure - whatever its message, the empty one included - yields
   the error block holding the block in which each text is converted or, where its conversion failed, the original;
   never an exception (total function) *)
Theorem C18_errors : forall f b,
  (exists s, In s (visited b) /\ fails f s)
  <-> fst (latex_block (py_wrap f) b) = error_block (map_block (outcome_text f) b) /\ snd (latex_block (py_wrap f) b) <> [].
Proof. exact latex_errors_all. Qed.
Print Assumptions C18_errors.

Theorem C18_no_error : forall f b, (forall s, In s (visited b) -> ~ fails f s) ->
  latex_block (py_wrap f) b = (map_block (outcome_text f) b, []).
Proof. exact latex_no_failure. Qed.
Print Assumptions C18_no_error.

(* an exception without message (a bare raise, a failed assert) is reported under its class name *)
Theorem C18_empty_message_reported : forall f s c0 cls, f s = Fail [] c0 cls -> py_wrap f s = (s, c0 :: cls).
Proof. exact py_wrap_empty_message. Qed.
Print Assumptions C18_empty_message_reported.

Theorem C18_failure_iff_message : forall f s, snd (py_wrap f s) <> [] <-> fails f s.
Proof. exact py_wrap_fails. Qed.
Print Assumptions C18_failure_iff_message.

(* library level: on the blocks of a library the middleware acts block by block (an entry that fails leaves the key
   index, nothing is re-wrapped or dropped), and the result is again a well-formed block list *)
Theorem C18_library : forall conv bs, wf_blocks bs ->
  latex_lib conv bs = map (fun b => fst (latex_block conv b)) bs /\ wf_blocks (latex_lib conv bs).
Proof. exact latex_lib_blockwise. Qed.
Print Assumptions C18_library.

(* conditional round trip: IF decoding the encoding of every text of the alphabet P returns it without error messages
   (a statement about pylatexenc and the configured rules: TESTED, not proved) THEN decode-middleware after
   encode-middleware is the identity on every library over P, and no error block appears *)
Theorem C18_roundtrip_conditional : forall (enc dec : str -> str * str) (P : str -> Prop),
  (forall s, P s -> snd (enc s) = [] /\ dec (fst (enc s)) = (s, [])) ->
  forall bs, wf_blocks bs -> all_texts P bs ->
  latex_lib dec (latex_lib enc bs) = bs /\ latex_errors enc bs = map (fun _ => []) bs.
Proof. exact roundtrip_conditional. Qed.
Print Assumptions C18_roundtrip_conditional.

(* non-vacuity, with the executable stub converters *)
Definition ex_entry : block :=
  BEntry (mkhdr (Some 3%Z) (Some (lit "@raw")) [(lit "m", VStr [c_eacute])]) (lit "article") [c_eacute]
    [mkfield (lit "title") (VStr (lit "caf" ++ [c_eacute])) (Some 4%Z);
     mkfield (lit "author") (VParts [[c_eacute]] [lit "von"] [lit "BOOM"; lit "x"] []) None;
     mkfield (lit "editor") (VList [VParts [[c_eacute]] [] [lit "BOOM"] []]) None;     (* a list of NameParts: not visited *)
     mkfield (lit "year") (VInt 1990) None].

Example C18_example_visited : visited ex_entry = [lit "caf" ++ [c_eacute]; [c_eacute]; lit "BOOM"; lit "x"; lit "von"].
Proof. reflexivity. Qed.

Example C18_example_error :
  latex_block stub_enc ex_entry =
  (BMwErr (mkhdr (Some 3%Z) (Some (lit "@raw")) []) EPartial
     (BEntry (mkhdr (Some 3%Z) (Some (lit "@raw")) [(lit "m", VStr [c_eacute])]) (lit "article") [c_eacute]
        [mkfield (lit "title") (VStr (lit "caf\'e")) (Some 4%Z);
         mkfield (lit "author") (VParts [lit "\'e"] [lit "von"] [lit "BOOM"; lit "x"] []) None;
         mkfield (lit "editor") (VList [VParts [[c_eacute]] [] [lit "BOOM"] []]) None;
         mkfield (lit "year") (VInt 1990) None]),
   [lit "boom BOOM"]).
Proof. vm_compute. reflexivity. Qed.

(* a converter raising an exception with an empty message *)
Example C18_example_empty_message :
  latex_block stub_enc (BString hdr0 [c_e] (VStr quiet))
  = (BMwErr hdr0 EPartial (BString hdr0 [c_e] (VStr quiet)), [lit "_Quiet"]).
Proof. vm_compute. reflexivity. Qed.

(* the stubs satisfy the round-trip hypothesis on texts without backslash, BOOM and QUIET, e.g.: *)
Example C18_example_roundtrip :
  let bs := [BString hdr0 (lit "s") (VStr (lit "caf" ++ [c_eacute])); BEntry hdr0 (lit "a") (lit "k") [mkfield (lit "t") (VStr [c_eacute; c_eacute]) None]] in
  wf_blocks bs /\ latex_lib stub_dec (latex_lib stub_enc bs) = bs /\ latex_lib stub_enc bs <> bs.
Proof.
  split; [|split].
  - split; vm_compute; repeat constructor; intros H; simpl in H; tauto.
  - vm_compute. reflexivity.
  - vm_compute. discriminate.
Qed.

(* the encoder rules of latex_encoding.py
   (Model/LatexRules.v; [enc_char] = pylatexenc's default conversion of one character, arbitrary here) *)
From BP Require Import Model.LatexRules Proofs.LatexRulesProofs.

(* both rules off: the default conversion, character by character *)
Theorem C18_rules_off : forall enc_char s, encode enc_char false false s = flat_map enc_char s.
Proof. exact encode_no_rules. Qed.
Print Assumptions C18_rules_off.

(* keep_math is greedy (root cause of K5): a text without line break that starts with a dollar and ends in a dollar not preceded
   by a backslash is copied WHOLE, whatever stands between the first and the last dollar - other spans, `&`, `%` ... *)
Theorem C18_rules_keep_math_first_to_last_dollar : forall enc_char eu u x,
  (forall c, In c u -> ceq c c_nl = false) -> ceq x c_bs = false ->
  encode enc_char true eu (c_dollar :: u ++ [x; c_dollar]) = c_dollar :: u ++ [x; c_dollar].
Proof. exact encode_keeps_first_to_last_dollar. Qed.
Print Assumptions C18_rules_keep_math_first_to_last_dollar.

(* the intended behaviour of keep_math (URL rule off): pre $ body x $ post with no other dollar, no line break inside the span
   and the opening dollar not after a backslash - the span is copied as it is, pre and post are converted character by character *)
Theorem C18_rules_single_span : forall enc_char pre u x post,
  (forall c, In c pre -> ceq c c_dollar = false) -> ceq (last pre c_sp) c_bs = false ->
  (forall c, In c u -> ceq c c_nl = false) -> ceq x c_bs = false -> (forall c, In c post -> ceq c c_dollar = false) ->
  encode enc_char true false (pre ++ c_dollar :: u ++ [x; c_dollar] ++ post)
  = flat_map enc_char pre ++ (c_dollar :: u ++ [x; c_dollar]) ++ flat_map enc_char post.
Proof. exact encode_single_span. Qed.
Print Assumptions C18_rules_single_span.

(* enclose_urls (root cause of K6): a matched URL is a prefix of the remaining text, and it is written between \url{ and }
   exactly as it is - no character of it is converted - after which conversion resumes behind it *)
Theorem C18_rules_url_raw : forall enc_char km s m pb, url_match s = Some m ->
  (exists rest, s = m ++ rest)
  /\ enc_go enc_char km true pb 0 s
     = url_open ++ m ++ [c_rb] ++ enc_go enc_char km true (pb_after pb (List.length m) s) 0 (skipn (List.length m) s).
Proof. intros enc_char km s m pb H. split; [exact (proj2 (url_match_shape s m H)) | exact (encode_url_raw enc_char km s m pb H)]. Qed.
Print Assumptions C18_rules_url_raw.

(* K5 and K6 on their witnesses, with the identity as default conversion: "$a$ & $b$" is kept whole (the `&` between the two
   spans is not converted); "http://a.b/c%20d x" becomes \url{http://a.b/c%20d} x with the `%` raw inside *)
Example C18_rules_examples :
  let s := map asc [36; 97; 36; 32; 38; 32; 36; 98; 36]%N in
  let u := map asc [104; 116; 116; 112; 58; 47; 47; 97; 46; 98; 47; 99; 37; 50; 48; 100; 32; 120]%N in
  encode (fun c => if ceq c (asc 38) then [c_bs; c] else [c]) true true s = s
  /\ encode (fun c => if ceq c c_pct then [c_bs; c] else [c]) true true u
     = url_open ++ firstn 16 u ++ [c_rb] ++ skipn 16 u.
Proof. vm_compute. split; reflexivity. Qed.

(* the constructors of the two middlewares: a custom converter together with one of the two switches is refused (ValueError),
   nothing else is; a switch that is not given takes its default (keep_math, enclose_urls: on; keep_braced_groups: off;
   keep_math_mode: on).  The harness checks the real constructors against this on every option combination (stream options). *)
Theorem C18_constructor_options : forall custom a b da db,
  (resolve_options custom a b da db = None <-> custom = true /\ (a <> None \/ b <> None))
  /\ resolve_options false None None da db = Some (false, da, db)
  /\ encoder_options false None None = Some (false, true, true)
  /\ decoder_options false None None = Some (false, false, true).
Proof.
  intros. split; [apply resolve_options_refuses|]. split; [apply resolve_options_defaults|]. split; reflexivity.
Qed.
Print Assumptions C18_constructor_options.

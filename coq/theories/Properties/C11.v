(* C11 - @string references resolve exactly: bare matching identifiers only (middleware level).
   Only statements and examples here; every proof of a theorem is `exact <lemma>` (Proofs/InterpolateProofs.v,
   Proofs/ResolveDocProofs.v).
   A library is the block list it is built from (the splitter's library.add(blocks)); [lblocks (lib_of bs)] are its blocks
   (later same-key entries / strings wrapped as duplicates), live entries are the BEntry blocks among them.  The
   "after default parsing of a grammar-derived document" framing composes these theorems with the splitter model:
   C11_doc_fields', C11_doc_untouched' and C11_doc_strings' at the end of the file. *)
From Coq Require Import List NArith ZArith Bool String.
From BP Require Import Base.Chars Model.Blocks Model.LibAdd Gen.Constants Model.Enclosing Model.Interpolate Spec.C11
  Proofs.InterpolateProofs.
Import ListNotations.

(* every live entry stays at its position with its type and key; its fields and the recorded keys are related to the
   original fields exactly by the spec relation [res_fields] (a field is replaced iff it is a str, not enclosed, and equal
   - case-sensitively - to the key of a defined string; then by the value of the FIRST definition of that key, wherever
   it stands); the metadata entry is written iff something was resolved and lists the resolved field keys in order *)
Theorem C11_entries : forall bs i h t k fs, nth_error (lblocks (lib_of bs)) i = Some (BEntry h t k fs) ->
  exists fs' ks, res_fields bs fs fs' ks /\ nth_error (resolve_lib bs) i = Some (BEntry (resolved_hdr h ks) t k fs').
Proof. exact resolve_entries. Qed.
Print Assumptions C11_entries.

(* read position by position: a resolvable field holds the string's value and its key is recorded ... *)
Theorem C11_resolved : forall bs fs fs' ks, res_fields bs fs fs' ks -> forall j f v, nth_error fs j = Some f -> Resolvable bs f v ->
  nth_error fs' j = Some (mkfield (fkey f) v (fline f)) /\ In (fkey f) ks.
Proof. exact res_fields_hit. Qed.
Print Assumptions C11_resolved.

(* ... any other field (enclosed look-alike, concatenation, other letter case, undefined name, number, non-str value) is
   the very same field afterwards and (field names being distinct) its key is not recorded *)
Theorem C11_untouched : forall bs fs fs' ks, res_fields bs fs fs' ks -> forall j f, nth_error fs j = Some f ->
  (forall v, ~ Resolvable bs f v) ->
  nth_error fs' j = Some f /\ (NoDup (map fkey fs) -> ~ In (fkey f) ks).
Proof. exact res_fields_miss. Qed.
Print Assumptions C11_untouched.

(* strings, wrapped duplicates, failed blocks, comments: untouched by resolution, same positions, same number of blocks *)
Theorem C11_strings_kept : forall bs i b, nth_error (lblocks (lib_of bs)) i = Some b -> is_entry b = false ->
  nth_error (resolve_lib bs) i = Some b.
Proof. exact resolve_others. Qed.
Print Assumptions C11_strings_kept.

Theorem C11_length : forall bs, List.length (resolve_lib bs) = List.length (lblocks (lib_of bs)).
Proof. exact resolve_length. Qed.
Print Assumptions C11_length.

(* the default parse stack (resolve, THEN remove enclosing) acts block by block ... *)
Theorem C11_default_stack : forall bs out, default_stack bs = Val out ->
  Forall2 (fun b b' => remove_block (resolve_block (strs (lib_of bs)) b) = Val b') (lblocks (lib_of bs)) out.
Proof. exact default_stack_blockwise. Qed.
Print Assumptions C11_default_stack.

(* ... strings come out exactly as RemoveEnclosing alone leaves them (definition order irrelevant, resolution invisible) ... *)
Theorem C11_default_strings : forall bs out out0, default_stack bs = Val out -> remove_lib (lblocks (lib_of bs)) = Val out0 ->
  forall i b, nth_error (lblocks (lib_of bs)) i = Some b -> is_entry b = false -> nth_error out i = nth_error out0 i.
Proof. exact default_stack_strings. Qed.
Print Assumptions C11_default_strings.

(* ... and a field of a live entry holds the CONTENT (one outer pair removed, C10) of the referenced string, or its own content *)
Theorem C11_default_field : forall bs out i h t k fs, default_stack bs = Val out ->
  nth_error (lblocks (lib_of bs)) i = Some (BEntry h t k fs) ->
  exists h' fs'', nth_error out i = Some (BEntry h' t k fs'') /\ sl h' = sl h /\ raw h' = raw h
    /\ forall j f, nth_error fs j = Some f ->
         (forall sv, Resolvable bs f (VStr sv) ->
            nth_error fs'' j = Some (mkfield (fkey f) (VStr (fst (strip_enclosing sv))) (fline f)))
         /\ (forall s, fval f = VStr s -> (forall v, ~ Resolvable bs f v) ->
            nth_error fs'' j = Some (mkfield (fkey f) (VStr (fst (strip_enclosing s))) (fline f))).
Proof. exact default_stack_field. Qed.
Print Assumptions C11_default_field.

(* the stack order matters: with RemoveEnclosing first, the braced look-alike {a} becomes the bare a and is resolved *)
Theorem C11_order_matters :
  field_values (default_stack order_witness) = [[]; [VStr (lit "a")]]
  /\ field_values (swapped_stack order_witness) = [[]; [VStr (lit "x")]]
  /\ default_stack order_witness <> swapped_stack order_witness.
Proof. exact order_matters. Qed.
Print Assumptions C11_order_matters.

Definition ex_lib : list block :=
  [BEntry hdr0 (lit "article") (lit "k")
     [mkfield (lit "journal") (VStr (lit "jan")) None;          (* bare, defined later: resolved to the FIRST definition *)
      mkfield (lit "note") (VStr (lit "{jan}")) None;           (* enclosed look-alike *)
      mkfield (lit "title") (VStr (lit "Jan")) None;            (* other letter case *)
      mkfield (lit "month") (VStr (lit "jan # jan")) None];     (* concatenation *)
   BString hdr0 (lit "jan") (VStr (lit "{January}"));
   BString hdr0 (lit "jan") (VStr (lit "{second definition}"))].

Example C11_example_resolvable :
  Resolvable ex_lib (mkfield (lit "journal") (VStr (lit "jan")) None) (VStr (lit "{January}"))
  /\ (forall v, ~ Resolvable ex_lib (mkfield (lit "note") (VStr (lit "{jan}")) None) v)
  /\ (forall v, ~ Resolvable ex_lib (mkfield (lit "title") (VStr (lit "Jan")) None) v).
Proof.
  split; [|split].
  - exists (lit "jan"). split; [reflexivity|]. split; [|vm_compute; reflexivity].
    intros H. apply enclosed_b in H. vm_compute in H. discriminate.
  - intros v (s & E & Hne & _). inversion E; subst. apply Hne. apply enclosed_b. vm_compute. reflexivity.
  - intros v (s & E & _ & F). inversion E; subst. vm_compute in F. discriminate.
Qed.

Example C11_example_default :
  field_values (default_stack ex_lib)
  = [[VStr (lit "January"); VStr (lit "jan"); VStr (lit "Jan"); VStr (lit "jan # jan")]; []; []].
Proof. vm_compute. reflexivity. Qed.

(* on documents of the dialect grammar, through the splitter and the default parse stack (Proofs/ResolveDocProofs.v):
   a bare value naming an @string holds the content of the FIRST @string of that name and is recorded; enclosed
   values, concatenations (see K8 for the one exception) and bare values naming no @string keep their own content
   and are not recorded; @string blocks stay where they are with only their enclosing removed *)
From BP Require Import Model.Splitter Model.Grammar Model.Pipeline Proofs.ResolveDocProofs.
Theorem C11_doc_fields' : forall d, wf_doc d -> nodup_fields d -> distinct_keys d ->
  exists out, parse_default (render d) = PVal out /\ List.length out = List.length (d_items d) /\
  forall i typ hws w1 key w2 t g, nth_error (d_items d) i = Some (IEntry typ hws w1 key w2 t, g) ->
    exists h' fs', nth_error out i = Some (BEntry h' (lower typ) key fs')
      /\ raw h' = Some (render_item (IEntry typ hws w1 key w2 t))
      /\ map fkey fs' = map g_name (etail_fields t)
      /\ forall j f, nth_error (etail_fields t) j = Some f ->
         (* (i) a bare piece naming an @string: the content of the FIRST such @string, and the field is listed *)
         (forall s sv, g_val f = mkgv (PBare s) [] -> first_gstring (d_items d) s = Some sv ->
            holds fs' j (g_name f) (fst (strip_enclosing (render_value sv))) /\ listed h' (g_name f))
         (* (ii) enclosed as the resolver sees it, or the whole source text names no @string: own content, not listed *)
         /\ (enclosed (render_value (g_val f)) \/ first_gstring (d_items d) (render_value (g_val f)) = None ->
            holds fs' j (g_name f) (fst (strip_enclosing (render_value (g_val f)))) /\ ~ listed h' (g_name f)).
Proof. exact ResolveDocProofs.C11_doc_fields. Qed.
Print Assumptions C11_doc_fields'.

Theorem C11_doc_untouched' : forall d, wf_doc d -> nodup_fields d -> distinct_keys d ->
  exists out, parse_default (render d) = PVal out /\
  forall i typ hws w1 key w2 t g, nth_error (d_items d) i = Some (IEntry typ hws w1 key w2 t, g) ->
    exists h' fs', nth_error out i = Some (BEntry h' (lower typ) key fs')
      /\ forall j f, nth_error (etail_fields t) j = Some f -> untouched d (g_val f) ->
           holds fs' j (g_name f) (fst (strip_enclosing (render_value (g_val f)))) /\ ~ listed h' (g_name f).
Proof. exact ResolveDocProofs.C11_doc_untouched. Qed.
Print Assumptions C11_doc_untouched'.

Theorem C11_doc_strings' : forall d, wf_doc d -> nodup_fields d ->
  exists out, parse_default (render d) = PVal out /\ List.length out = List.length (d_items d)
  (* block level: everything that is no live entry is exactly what RemoveEnclosing alone makes of the split's block *)
  /\ split (render d) = Blocks (rebuild (expected d))
  /\ (forall i b, nth_error (rebuild (expected d)) i = Some b -> is_entry b = false ->
        exists b', remove_block b = Enclosing.Val b' /\ nth_error out i = Some b')
  (* document level *)
  /\ forall i kw hws w1 name w2 w3 v w4 g,
       nth_error (d_items d) i = Some (IString kw hws w1 name w2 w3 v w4, g) ->
       let it := IString kw hws w1 name w2 w3 v w4 in
       (* the first @string of its name: same position, same key, its own content, only the enclosing removed *)
       (first_gstring (firstn i (d_items d)) name = None ->
          exists ln, nth_error out i =
            Some (BString (mkhdr (Some ln) (Some (render_item it))
                             [(remove_enclosing_metadata_key, VStr (snd (strip_enclosing (render_value v))))])
                    name (VStr (fst (strip_enclosing (render_value v))))))
       (* a later @string of a repeated name: the duplicate wrapper of the split, untouched *)
       /\ (forall v0, first_gstring (firstn i (d_items d)) name = Some v0 ->
          exists ln hp, nth_error out i =
            Some (BDupKey (mkhdr (Some ln) (Some (render_item it)) []) name
                    (BString hp name (VStr (render_value v0)))
                    (BString (mkhdr (Some ln) (Some (render_item it)) []) name (VStr (render_value v))))).
Proof. exact ResolveDocProofs.C11_doc_strings. Qed.
Print Assumptions C11_doc_strings'.

Theorem C11_concat_refuted' :
  render cx_doc = lit "@string{a#b = ""X""} @article{k, t = a#b}"
  /\ wf_doc cx_doc /\ nodup_fields cx_doc /\ distinct_keys cx_doc /\ hash_free_b cx_doc = false
  /\ match parse_default (render cx_doc) with
     | PVal [_; BEntry h _ _ [f]] => fval f = VStr (lit "X") /\ dict_get (meta h) resolve_meta_key = Some (VList [VStr (lit "t")])
     | _ => False
     end.
Proof. exact ResolveDocProofs.C11_concat_refuted. Qed.
Print Assumptions C11_concat_refuted'.


(* C13 - name parts follow BibTeX's First/von/Last/Jr rules and keep every word once; invalid names become error blocks.
   Only statements here; proofs in Proofs/NamesPartProofs.v, Proofs/NamesParseProofs.v, Proofs/NamesTokProofs.v and,
   for the comparison with BibTeX's word case, Proofs/BibtexCaseProofs.v, BibtexCaseAgree.v, BibtexCaseAgree2.v.

   Both layers are proved for ALL strings (any characters, any flag assignment of isalpha/isupper):
   - tokeniser layer: the single pass with its eight registers computes exactly the compositional
     Spec.C13 (atoms -> sections at depth-0 commas -> words at depth-0 whitespace -> word_case of each word alone);
   - partition layer: Python's negative-index slices / index / rindex are BibTeX's partition.
   The only things entering from outside are the two whitespace sets read from the running module
   (Gen/Constants.v; the facts used about them are proved by evaluation: NamesTokProofs.ws_parse_facts,
   BibtexCaseAgree.ws_not_letters).

   What "the case of a word" is: Spec.C13.word_case is the rule the LIBRARY implements (that is what C13_partition
   proves).  PROVED: it agrees with BibTeX's von_token_found (the literal transcription Spec/BibtexCase.v) on ASCII
   words without a backslash and on ASCII words without a brace (C13_word_case_agrees_without_backslash / _without_brace;
   both are instances of BibtexCaseAgree.agree_top_escapes: no backslash inside braces, and none at brace level 0
   directly before a brace).  REFUTED: it does not on the five word classes of known finding K14
   (C13_word_case_refuted_K14 / C13_partition_refuted_K14).  Only TESTED: the usual one-letter accents {\'E}x
   (C13_K14_agreement_sample here, and the 149 cases of the repository's BibTeX-derived corpus in the harness). *)
From Coq Require Import List NArith ZArith Bool String.
Local Open Scope string_scope.
From BP Require Import Base.Chars Model.Blocks Gen.Constants Model.Names Spec.C13 Spec.BibtexCase
  Proofs.BibtexCaseProofs Proofs.BibtexCaseAgree Proofs.BibtexCaseAgree2 Proofs.NamesPartProofs
  Proofs.NamesParseProofs Proofs.NamesTokProofs.
Import ListNotations.

(* MAIN THEOREM: in strict mode (the default, and what SplitNameParts uses) the function IS the specification:
   a name is accepted iff the compositional transcription of BibTeX's algorithm accepts it, with the same parts *)
Theorem C13_partition : forall s p, spec_parse s = Some p <-> parse_name true s = POk p.
Proof. exact tok_partition. Qed.
Print Assumptions C13_partition.

(* InvalidNameError is raised exactly for unbalanced braces, more than two depth-0 commas, or a trailing comma *)
Theorem C13_invalid : forall s, invalid_name s = true <-> exists e, parse_name true s = PErr e.
Proof. exact tok_invalid. Qed.
Print Assumptions C13_invalid.

(* C13_partition with spec_parse unfolded: every accepted name is the partition of name_sections s.  That the case of
   a word depends on the word's own characters only is not said by this statement but by the definition of
   name_sections, which applies word_case to each word separately. *)
Theorem C13_word_case_local : forall s p, parse_name true s = POk p ->
  p = if forallb is_nil (name_sections s) then parts0 else partition_spec (name_sections s).
Proof. exact tok_partition_sections. Qed.
Print Assumptions C13_word_case_local.

(* also for non-strict mode: the result of a successful parse (strict or not) is BibTeX's partition of the pass's own word lists:
   Zs pairs every word with the case the pass computed for it; no word is empty; words and cases are in lock-step *)
Theorem C13_partition_any_mode : forall strict s p, parse_name strict s = POk p ->
  exists Zs : list (list (str * Z)),
    parse_sections strict s = POk (map (map fst) Zs, map (map snd) Zs) /\ words_nonempty Zs /\
    p = if forallb is_nil Zs then parts0 else partition_spec (map (map cw) Zs).
Proof. exact parse_name_partition. Qed.
Print Assumptions C13_partition_any_mode.

(* the model's partition (Python's negative-index slices, index/rindex) IS the readable partition, on every list of
   sections whatsoever (any number of words, any case pattern, 1, 2, 3 or more sections) *)
Theorem C13_partition_slices : forall Zs : list (list (str * Z)), words_nonempty Zs ->
  partition (map (map fst) Zs) (map (map snd) Zs) = partition_spec (map (map cw) Zs).
Proof. exact partition_eq. Qed.
Print Assumptions C13_partition_slices.

(* every word exactly once and in source order within its comma section: First ++ von ++ Last is the comma-free
   section; von ++ Last is the first section and Jr / First are the later ones *)
Theorem C13_words_once : forall secs, words_once secs (partition_spec secs).
Proof. exact spec_words_once1. Qed.
Print Assumptions C13_words_once.

(* Last always keeps at least the final word of its section *)
Theorem C13_last_keeps_final : forall secs, last_keeps_final secs (partition_spec secs).
Proof. exact spec_last_keeps_final. Qed.
Print Assumptions C13_last_keeps_final.

(* strict mode only adds errors: a name accepted in strict mode is split identically in non-strict mode
   (so no name is silently altered by the error handling) *)
Theorem C13_strict_only_adds_errors : forall s p, parse_name true s = POk p -> parse_name false s = POk p.
Proof. exact strict_sub. Qed.
Print Assumptions C13_strict_only_adds_errors.

(* SplitNameParts on an entry whose name fields hold lists of strings never raises: either every name is valid and
   the entry comes back with the same header, type, key, field keys and lines, non-name fields untouched and every
   name replaced by its parts; or some name is invalid and the result is a MiddlewareErrorBlock (InvalidNameError)
   with the entry's start line and raw text, holding the entry with the same type, key, field keys/lines, non-name
   fields untouched, and the field with the offending name unchanged *)
Theorem C13_error_block : forall nf h t key fs, well_typed nf fs ->
  error_block_spec nf h t key fs (name_entry nf MwSplitParts (BEntry h t key fs)).
Proof. exact split_entry_error_block. Qed.
Print Assumptions C13_error_block.

(* ---- non-vacuity *)
Definition ex_s (x : String.string) : str := lit x.

(* "AA bb CC dd" (the F8 witness): First=[AA] von=[bb] Last=[CC dd] *)
Example C13_example_f8 :
  parse_name true (ex_s "AA bb CC dd") = POk (mkparts [ex_s "AA"] [ex_s "bb"] [ex_s "CC"; ex_s "dd"] []).
Proof. vm_compute. reflexivity. Qed.

Example C13_example_three_forms :
  parse_name true (ex_s "Charles Louis de la Vall{\'e}e Poussin")
  = POk (mkparts [ex_s "Charles"; ex_s "Louis"] [ex_s "de"; ex_s "la"] [ex_s "Vall{\'e}e"; ex_s "Poussin"] [])
  /\ parse_name true (ex_s "von der Last, Jr, First~Name")
  = POk (mkparts [ex_s "First"; ex_s "Name"] [ex_s "von"; ex_s "der"] [ex_s "Last"] [ex_s "Jr"])
  /\ parse_name true (ex_s "AA, BB, CC, DD") = PErr NTooMany
  /\ parse_name true (ex_s "AA {BB CC") = PErr NUnterminated
  /\ parse_name true (ex_s "AA BB CC}") = PErr NUnmatched
  /\ parse_name true (ex_s "BB, ") = PErr NTrailing.
Proof. vm_compute. repeat split. Qed.

Example C13_example_error_block :
  let f1 := mkfield (ex_s "editor") (VList [VStr (ex_s "Aa Bb")]) (Some 1%Z) in
  let f2 := mkfield (ex_s "author") (VList [VStr (ex_s "Cc Dd"); VStr (ex_s "BB,")]) (Some 2%Z) in
  let h := mkhdr (Some 3%Z) (Some (ex_s "@book{k}")) [] in
  well_typed default_name_fields [f1; f2] /\
  name_entry default_name_fields MwSplitParts (BEntry h (ex_s "book") (ex_s "k") [f1; f2])
  = NBVal (BMwErr h EInvalidName
             (BEntry h (ex_s "book") (ex_s "k")
                [mkfield (ex_s "editor") (VList [VParts [ex_s "Aa"] [] [ex_s "Bb"] []]) (Some 1%Z); f2])).
Proof.
  cbv zeta. split.
  - constructor; [intros _; exists [ex_s "Aa Bb"]; reflexivity|].
    constructor; [intros _; exists [ex_s "Cc Dd"; ex_s "BB,"]; reflexivity|]. constructor.
  - vm_compute. reflexivity.
Qed.

(* ---- known finding K14: the word case is not BibTeX's where a special character or an escape is involved *)
Theorem C13_word_case_refuted_K14 : exists w, lib_von w = true /\ von_token_found w = false.
Proof. exact word_case_refuted. Qed.
Print Assumptions C13_word_case_refuted_K14.

(* `Bent {\O}rsted Hansen`: the library (by C13_partition: the model) makes the middle word the von part; for BibTeX
   \O is an upper-case control word, the word is not a von token and belongs to First *)
Theorem C13_partition_refuted_K14 : exists s p w,
  parse_name true s = POk p /\ n_first p = [lit "Bent"] /\ n_von p = [w] /\ n_last p = [lit "Hansen"]
  /\ von_token_found w = false.
Proof. exact partition_refuted. Qed.
Print Assumptions C13_partition_refuted_K14.

(* ... and ONLY there: on words of ASCII characters (with the flags CPython gives them) that hold no backslash, the library's
   word case is BibTeX's - any length, any brace nesting, balanced or not *)
Theorem C13_word_case_agrees_without_backslash : forall w,
  forallb ascii_canon w = true -> no_bs w = true -> lib_von w = von_token_found w.
Proof. exact agree_no_backslash. Qed.
Print Assumptions C13_word_case_agrees_without_backslash.

(* the same for words that hold escapes but no brace (`\'Emile`, `\o`, `d\'Alembert`): the deviation needs a backslash AND a brace *)
Theorem C13_word_case_agrees_without_brace : forall w,
  forallb ascii_canon w = true -> no_brace w = true -> lib_von w = von_token_found w.
Proof. exact agree_no_brace. Qed.
Print Assumptions C13_word_case_agrees_without_brace.

(* one word per class D1..D5 of the finding with both verdicts; and a sample (a test, bounded) of forms that agree *)
Example C13_K14_classes :
  forallb (fun x => Bool.eqb (lib_von (fst x)) (fst (snd x)) && Bool.eqb (von_token_found (fst x)) (snd (snd x))
                    && negb (Bool.eqb (lib_von (fst x)) (von_token_found (fst x)))) k14_words = true.
Proof. exact k14_words_differ. Qed.
Example C13_K14_agreement_sample : forallb (fun w => Bool.eqb (lib_von w) (von_token_found w)) agree_words = true.
Proof. exact agree_sample. Qed.

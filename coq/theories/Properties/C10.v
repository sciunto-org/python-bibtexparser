(* C10 - Enclosing removal strips exactly one layer; adding back restores or re-encloses (middleware level).
   Only statements and examples here; every proof of a theorem is `exact <lemma>` (Proofs/EnclosingProofs.v,
   Proofs/LibAddProofs.v, Proofs/ReparseProofs.v).
   The clause "written into an entry and re-parsed is one field with the same content" composes AddEnclosing with the
   splitter: C10_reparse_brace' and C10_reparse_quote' at the end of the file, with the witnesses for K2 and K4. *)
From Coq Require Import List NArith ZArith Bool String.
From BP Require Import Base.Chars Model.Blocks Model.LibAdd Gen.Constants Model.Enclosing Spec.C10
  Proofs.LibAddProofs Proofs.EnclosingProofs.
Import ListNotations.
Local Open Scope Z_scope.

(* _strip_enclosing strips exactly one genuine outer {...} or "..." pair of the stripped value and says which;
   if the value is not one such piece it returns it unchanged with 'no-enclosing'.  The three cases are exhaustive
   and exclusive (a value has at most one outer pair), so this determines the function on every input. *)
Theorem C10_strip_one_layer : forall value : str,
  let v := strip value in
  (forall w, outer_brace v w -> strip_enclosing value = (w, [c_lb]))
  /\ (forall w, outer_quote v w -> strip_enclosing value = (w, [c_quote]))
  /\ ((forall w, ~ outer_brace v w) -> (forall w, ~ outer_quote v w) -> strip_enclosing value = (v, no_enclosing)).
Proof. exact strip_one_layer. Qed.
Print Assumptions C10_strip_one_layer.

(* adding back with reuse restores the original value exactly (every splitter value is stripped: strip v = v);
   for any value at all the result is the stripped original; whatever default / enclose_integers / numeric field *)
Theorem C10_reuse_restores : forall c v air, reuse c = true -> strip v = v ->
  enclose c (VStr (fst (strip_enclosing v))) (Some (VStr (snd (strip_enclosing v)))) air = Val (VStr v).
Proof. exact reuse_restores. Qed.
Print Assumptions C10_reuse_restores.

Theorem C10_reuse_restores_stripped : forall c value air, reuse c = true ->
  enclose c (VStr (fst (strip_enclosing value))) (Some (VStr (snd (strip_enclosing value)))) air = Val (VStr (strip value)).
Proof. exact reuse_restores_strip. Qed.
Print Assumptions C10_reuse_restores_stripped.

(* integer values (digit strings by str.isdigit, Python ints) in a numeric field (apply_int_rule = true), when no
   recorded enclosing is reused: never an error; unchanged (type included) iff enclose_integers = False; otherwise
   the default enclosing around the decimal text; outside numeric fields always the default enclosing *)
Theorem C10_int_rule : forall c v md, wf_cfg c -> (reuse c = false \/ not_none md = None) -> is_integer v = true ->
  (exists r, enclose c v md true = Val r)
  /\ (enclose c v md true = Val v <-> enclose_integers c = false)
  /\ (enclose_integers c = true ->
      exists txt q, fmt_value v = Some txt /\ default_enclosing c = [q] /\ enclose c v md true = Val (VStr (wrap q txt)))
  /\ (exists txt q, fmt_value v = Some txt /\ default_enclosing c = [q] /\ enclose c v md false = Val (VStr (wrap q txt))).
Proof. exact int_rule. Qed.
Print Assumptions C10_int_rule.

(* every other text / int value gets the default enclosing, without error *)
Theorem C10_default_enclosing : forall c v txt md air, wf_cfg c -> (reuse c = false \/ not_none md = None) ->
  fmt_value v = Some txt -> (air = false \/ is_integer v = false) ->
  exists q, default_enclosing c = [q] /\ enclose c v md air = Val (VStr (wrap q txt)).
Proof. exact default_enclosing_rule. Qed.
Print Assumptions C10_default_enclosing.

(* RemoveEnclosing on an entry: every field value is replaced by its stripped content; type, key, field keys, field
   lines are kept; the metadata entry maps each field key to the enclosing recorded for (the last field with) that key
   and to nothing else *)
Theorem C10_entry_metadata : forall h t k fs b', remove_block (BEntry h t k fs) = Val b' ->
  exists fs' md,
    b' = BEntry (set_meta h remove_enclosing_metadata_key (VDict md)) t k fs'
    /\ Forall2 stripped_field fs fs'
    /\ map fkey fs' = map fkey fs /\ map fline fs' = map fline fs
    /\ (forall k', dict_get md k' = match last_field k' fs with Some f => Some (recorded f) | None => None end).
Proof. exact remove_entry_spec. Qed.
Print Assumptions C10_entry_metadata.

Theorem C10_string_metadata : forall h k v b', remove_block (BString h k v) = Val b' ->
  exists s, v = VStr s
    /\ b' = BString (set_meta h remove_enclosing_metadata_key (VStr (snd (strip_enclosing s)))) k (VStr (fst (strip_enclosing s))).
Proof. exact remove_string_spec. Qed.
Print Assumptions C10_string_metadata.

(* frame: other blocks are returned as they are; of a block header only the one metadata entry changes *)
Theorem C10_other_blocks : forall b, is_entry b = false -> is_string b = false -> remove_block b = Val b.
Proof. exact remove_other. Qed.
Print Assumptions C10_other_blocks.

Theorem C10_metadata_frame : forall h k v, sl (set_meta h k v) = sl h /\ raw (set_meta h k v) = raw h
  /\ dict_get (meta (set_meta h k v)) k = Some v
  /\ (forall k', k' <> k -> dict_get (meta (set_meta h k v)) k' = dict_get (meta h) k').
Proof. exact set_meta_frame. Qed.
Print Assumptions C10_metadata_frame.

(* removal never raises on text values *)
Theorem C10_remove_total : forall fs, Forall (fun f => is_vstr (fval f) = true) fs -> forall md0, exists r, remove_fields fs md0 = Val r.
Proof. exact remove_fields_str_total. Qed.
Print Assumptions C10_remove_total.

(* library level: the block list of ANY library has distinct live keys, and on such a list both middlewares act
   block by block (BlockMiddleware.transform's Library(blocks=...) wraps nothing, drops nothing, reorders nothing) *)
Theorem C10_library_wf : forall bs, wf_blocks (lblocks (lib_of bs)).
Proof. exact lib_of_wf. Qed.
Print Assumptions C10_library_wf.

Theorem C10_remove_library : forall bs bs', wf_blocks bs -> remove_lib bs = Val bs' ->
  Forall2 (fun b b' => remove_block b = Val b') bs bs'.
Proof. exact remove_lib_blockwise. Qed.
Print Assumptions C10_remove_library.

Theorem C10_add_library : forall c bs bs', wf_blocks bs -> add_lib c bs = Val bs' ->
  Forall2 (fun b b' => add_block_encl c b = Val b') bs bs'.
Proof. exact add_lib_blockwise. Qed.
Print Assumptions C10_add_library.

(* AddEnclosing on an entry keeps type, key, field keys and lines and pops the metadata entry *)
Theorem C10_add_entry_frame : forall c h t k fs b', add_block_encl c (BEntry h t k fs) = Val b' ->
  exists fs', b' = BEntry (del_meta h remove_enclosing_metadata_key) t k fs'
    /\ map fkey fs' = map fkey fs /\ map fline fs' = map fline fs.
Proof. exact add_entry_frame. Qed.
Print Assumptions C10_add_entry_frame.

(* remove, then add with reuse, on an entry with pairwise distinct field keys: every value is its stripped original *)
Theorem C10_entry_reuse_restores : forall c h t k fs b1, reuse c = true -> NoDup (map fkey fs) ->
  remove_block (BEntry h t k fs) = Val b1 ->
  exists h', add_block_encl c b1 = Val (BEntry h' t k (map (fun f => mkfield (fkey f) (VStr (strip (str_of (fval f)))) (fline f)) fs))
             /\ sl h' = sl h /\ raw h' = raw h.
Proof. exact entry_reuse_restores. Qed.
Print Assumptions C10_entry_reuse_restores.

(* the constants regenerated from the running module are the ones the property names *)
Theorem C10_numeric_fields :
  entry_potentially_int_fields = map lit ["year"; "month"; "volume"; "number"; "pages"; "edition"; "chapter"; "issue"]%string
  /\ strings_can_be_unescaped_ints = false
  /\ remove_enclosing_metadata_key = lit "removed_enclosing" /\ removed_enclosing_key = lit "removed_enclosing".
Proof. exact numeric_fields_ok. Qed.
Print Assumptions C10_numeric_fields.

(* examples; the concatenations and the lone quote guard against taking an inner delimiter for the closing one (finding F5) *)
Example C10_example_nested : outer_brace (c_lb :: lit "a{b}c" ++ [c_rb]) (lit "a{b}c")
  /\ strip_enclosing (lit "  {a{b}c} ") = (lit "a{b}c", [c_lb]).
Proof. split; [apply single_brace; vm_compute; reflexivity | vm_compute; reflexivity]. Qed.

Example C10_example_quote_in_braces : outer_quote (c_quote :: lit "a{""}b" ++ [c_quote]) (lit "a{""}b").
Proof. apply single_quote. vm_compute. reflexivity. Qed.

(* {a} # {b}, "a" # "b" and the lone quote are NOT one enclosed piece *)
Example C10_example_concat : ~ outer_brace (c_lb :: lit "a} # {b" ++ [c_rb]) (lit "a} # {b")
  /\ ~ outer_quote (c_quote :: lit "a"" # ""b" ++ [c_quote]) (lit "a"" # ""b")
  /\ strip_enclosing (lit "{a} # {b}") = (lit "{a} # {b}", no_enclosing)
  /\ strip_enclosing [c_quote] = ([c_quote], no_enclosing).
Proof.
  repeat split.
  - intros H. apply single_brace in H. vm_compute in H. discriminate.
  - intros H. apply single_quote in H. vm_compute in H. discriminate.
Qed.

Example C10_example_int_rule :
  enclose (mkadd false false [c_lb]) (VInt 1990) None true = Val (VInt 1990)
  /\ enclose (mkadd false true [c_lb]) (VInt 1990) None true = Val (VStr (lit "{1990}"))
  /\ enclose (mkadd false false [c_quote]) (VStr (lit "1990")) None true = Val (VStr (lit "1990"))
  /\ enclose (mkadd false false [c_quote]) (VStr (lit "1990")) None false = Val (VStr (c_quote :: lit "1990" ++ [c_quote]))
  /\ is_integer (VStr (lit "1990")) = true /\ wf_cfg (mkadd false false [c_lb]).
Proof. repeat split; try (vm_compute; reflexivity). left. reflexivity. Qed.

Example C10_example_entry :
  remove_block (BEntry hdr0 (lit "article") (lit "k") [mkfield (lit "title") (VStr (lit "{T}")) None; mkfield (lit "year") (VStr (lit "1990")) None])
  = Val (BEntry (mkhdr None None [(remove_enclosing_metadata_key,
                                   VDict [(lit "title", VStr [c_lb]); (lit "year", VStr no_enclosing)])])
                (lit "article") (lit "k") [mkfield (lit "title") (VStr (lit "T")) None; mkfield (lit "year") (VStr (lit "1990")) None]).
Proof. vm_compute. reflexivity. Qed.

(* the re-parse clause, composed with the splitter model (Proofs/ReparseProofs.v): adding the default enclosing to
   a brace-balanced value (a `braced` content of the grammar: no active brace outside a group, not ending in a
   backslash, no block-start pattern = not in K2), written into an entry and re-parsed with the default stack, is one
   field with exactly that content; same for the quote default over `quoted` content (no bare quote outside braces,
   and none inside = not in K4); K2 and K4 are refuted by witnesses *)
From BP Require Import Model.Splitter Model.Grammar Model.Pipeline Proofs.ReparseProofs.
Theorem C10_reparse_brace' : forall (b : braced) typ key pre name w1 w2 post,
  frame_ok typ key pre name w1 w2 post = true ->
  wf_braced false b = true ->                          (* brace-balanced, no active brace outside a group, no final backslash *)
  noat (render_braced b) [c_rb] = true ->              (* not in K2: no '@' word* blank* '{' in the value *)
  let v := render_braced b in
  let ev := c_lb :: v ++ [c_rb] in
  let text := entry_text typ key pre name w1 w2 ev post in
  (forall md air, enclose (mkadd false true [c_lb]) (VStr v) md air = Enclosing.Val (VStr ev))
  /\ split_raw text = Blocks [BEntry (mkhdr (Some 0) (Some text) []) (lower typ) key
                                [mkfield name (VStr ev) (Some (fline_of typ key pre name w1))]]
  /\ strip_enclosing ev = (v, [c_lb])
  /\ parse_default text =
     PVal [BEntry (mkhdr (Some 0) (Some text) [(Gen.Constants.remove_enclosing_metadata_key, VDict [(name, VStr [c_lb])])])
             (lower typ) key [mkfield name (VStr v) (Some (fline_of typ key pre name w1))]].
Proof. exact ReparseProofs.C10_reparse_brace. Qed.
Print Assumptions C10_reparse_brace'.

Theorem C10_reparse_quote' : forall (q : quoted) typ key pre name w1 w2 post,
  frame_ok typ key pre name w1 w2 post = true ->
  wf_quoted false q = true ->                          (* brace-balanced, no active quote at all (outside braces: the
                                                          quantifier; inside braces: not in K4), no final backslash *)
  noat (render_quoted q) [c_quote] = true ->           (* not in K2 *)
  let v := render_quoted q in
  let ev := c_quote :: v ++ [c_quote] in
  let text := entry_text typ key pre name w1 w2 ev post in
  (forall md air, enclose (mkadd false true [c_quote]) (VStr v) md air = Enclosing.Val (VStr ev))
  /\ split_raw text = Blocks [BEntry (mkhdr (Some 0) (Some text) []) (lower typ) key
                                [mkfield name (VStr ev) (Some (fline_of typ key pre name w1))]]
  /\ strip_enclosing ev = (v, [c_quote])
  /\ parse_default text =
     PVal [BEntry (mkhdr (Some 0) (Some text) [(Gen.Constants.remove_enclosing_metadata_key, VDict [(name, VStr [c_quote])])])
             (lower typ) key [mkfield name (VStr v) (Some (fline_of typ key pre name w1))]].
Proof. exact ReparseProofs.C10_reparse_quote. Qed.
Print Assumptions C10_reparse_quote'.

Theorem C10_reparse_refuted_K2 :
  render_braced k2_b = lit "a @b{c}"
  /\ frame_ok (lit "article") (lit "k") (lit " ") (lit "t") (lit " ") (lit " ") [] = true
  /\ wf_braced false k2_b = true /\ noat (render_braced k2_b) [c_rb] = false
  /\ ex_frame (c_lb :: render_braced k2_b ++ [c_rb]) = lit "@article{k, t = {a @b{c}}}"
  /\ map class_of (blocks_of (split_raw (ex_frame (c_lb :: render_braced k2_b ++ [c_rb])))) = [CFailed; CEntry; CImpl]
  /\ forall h t k fs, split_raw (ex_frame (c_lb :: render_braced k2_b ++ [c_rb])) <> Blocks [BEntry h t k fs].
Proof. exact ReparseProofs.C10_reparse_brace_refuted_K2. Qed.
Print Assumptions C10_reparse_refuted_K2.

Theorem C10_reparse_refuted_K4 :
  render_quoted k4_q = [c_lb; c_quote; c_rb] /\ render_braced k4_b = [c_lb; c_quote; c_rb]
  /\ wf_braced false k4_b = true /\ noat (render_braced k4_b) [c_rb] = true
  /\ wf_quoted false k4_q = false /\ noat (render_quoted k4_q) [c_quote] = true
  /\ map class_of (blocks_of (split_raw (ex_frame (c_quote :: render_quoted k4_q ++ [c_quote])))) = [CEntry; CImpl]
  /\ (forall h t k n fl, split_raw (ex_frame (c_quote :: render_quoted k4_q ++ [c_quote]))
                         <> Blocks [BEntry h t k [mkfield n (VStr (c_quote :: render_quoted k4_q ++ [c_quote])) fl]])
  /\ match blocks_of (split_raw (ex_frame (c_quote :: render_quoted k4_q ++ [c_quote]))) with
     | BEntry _ _ _ [f] :: _ => fval f = VStr [c_quote; c_lb; c_quote]
     | _ => False
     end.
Proof. exact ReparseProofs.C10_reparse_quote_refuted_K4. Qed.
Print Assumptions C10_reparse_refuted_K4.


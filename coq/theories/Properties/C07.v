(* C07 - writing and copy-mode middleware never mutate or alias their input.
   Only statements here; the proofs are in Proofs/HeapProofs.v, Proofs/HeapBodiesProofs.v, Proofs/HeapCopyIso.v and
   Proofs/HeapCopyTotal.v.  Readable definitions: Spec/C07.v
   (input_untouched, shares_nothing, no_alias, dc_contract, footprint_ok, mw_ok); model: Model/Heap.v, Model/HeapMw.v.

   What is ASSUMED: copy.deepcopy is CPython's; it enters as an arbitrary function DC with the contract dc_contract
   (explicit hypothesis of every theorem, not an axiom).  What is PROVED: for every heap, every library object in it,
   every per-block body within footprint_ok, every stack - the framework code of middleware.py / interpolate.py /
   sorting_blocks.py / library.py / writer.py (as transcribed in Model/HeapMw.v) leaves every pre-existing object
   untouched and returns a library from which no pre-existing object is reachable. *)
From Coq Require Import List ZArith Bool.
From BP Require Import Model.Heap Model.HeapMw Model.HeapBodies Spec.C07 Proofs.HeapProofs Proofs.HeapBodiesProofs
  Proofs.HeapCopyTotal.
Import ListNotations.
Local Open Scope Z_scope.

(* BlockMiddleware.transform with allow_inplace_modification=False, any body that stays within its footprint:
   every object of the initial heap is unchanged, and nothing reachable from the result library is such an object *)
Theorem C07_copy_mode : forall DC, dc_contract DC -> forall bd h lib h' lib',
  footprint_ok bd -> wf_heap h -> In lib (dom h) ->
  transform_block_mw DC false bd h lib = Some (h', lib') ->
  wf_heap h' /\ In lib' (dom h') /\ input_untouched h h' /\ shares_nothing h h' lib'.
Proof. exact copy_mode_ok. Qed.
Print Assumptions C07_copy_mode.

(* the three library-level transforms: LibraryMiddleware(False), ResolveStringReferences(False) for EVERY set of
   bare references, SortBlocksByTypeAndKey (always) for EVERY permutation the sort may apply *)
Theorem C07_library_mws : forall DC, dc_contract DC -> forall h lib h' lib', wf_heap h -> In lib (dom h) ->
  (library_mw DC false h lib = Some (h', lib') -> no_alias h h' lib')
  /\ (forall bare kres, resolve_mw DC false bare kres h lib = Some (h', lib') -> no_alias h h' lib')
  /\ (forall perm, sort_blocks_mw DC perm h lib = Some (h', lib') -> no_alias h h' lib').
Proof.
  exact (fun DC C h lib h' lib' W L =>
    conj (library_mw_ok DC C h lib h' lib' W L)
   (conj (fun bare kres => resolve_ok DC C bare kres h lib h' lib' W L)
         (fun perm => sort_blocks_ok DC C perm h lib h' lib' W L))).
Qed.
Print Assumptions C07_library_mws.

(* stacks of ANY positive length (not only <= 3) of copy-mode middlewares: the original input is untouched and the
   final result shares nothing with it *)
Theorem C07_stack : forall DC, dc_contract DC -> forall ms h lib h' lib',
  Forall mw_ok ms -> ms <> [] -> wf_heap h -> In lib (dom h) ->
  run_stack DC ms h lib = Some (h', lib') -> no_alias h h' lib'.
Proof. exact run_stack_ok. Qed.
Print Assumptions C07_stack.

(* write_string with the default stack (one copy-mode block middleware, any body within footprint_ok - AddEnclosing's
   transform_entry / transform_string write field / string values and pop a metadata key of THEIR block) followed by
   writer.write, which deep-copies the caller's format before replacing 'auto': every pre-existing object - the whole
   library and the format - is unchanged, so a second write_string reads exactly the same library and format graph *)
Theorem C07_write_string : forall DC, dc_contract DC -> forall bd at_auto at_col h lib fmt h',
  footprint_ok bd -> wf_heap h -> In lib (dom h) -> In fmt (dom h) ->
  write_string_mw DC bd at_auto at_col h lib fmt = Some h' ->
  wf_heap h' /\ input_untouched h h'
  /\ (forall p, reach h' lib p <-> reach h lib p) /\ (forall p, reach h' fmt p <-> reach h fmt p).
Proof. exact write_string_ok. Qed.
Print Assumptions C07_write_string.

(* footprint_ok is met by non-trivial bodies: every probe body run against the real framework by the correspondence
   (set every value, append a Field, replace the metadata dict, drop strings, return [block, new comment], return the
   block twice, rename keys) - all but the deliberately leaking probe 7, which stores the library it is given *)
Theorem C07_probe_footprints : forall n c kp kdup, n <> 7 -> footprint_ok (probe_body n c kp kdup).
Proof. exact probe_footprints. Qed.
Print Assumptions C07_probe_footprints.

(* The transform_entry / transform_string bodies of EVERY shipped BlockMiddleware (Model/HeapBodies.v: RemoveEnclosing,
   AddEnclosing, the three Month*, NormalizeFieldKeys, SortFieldsAlphabetically / SortFieldsCustom, SeparateCoAuthors,
   MergeCoAuthors, SplitNameParts, MergeNameParts, LatexEncoding / LatexDecoding) stay within their footprint - for EVERY
   value of the harness-supplied string tables (no hypothesis on them: a table can only decide which atoms are written
   and which branch is taken, never which objects are touched). *)
Theorem C07_shipped_footprints : forall s, footprint_ok (shipped_body s).
Proof. exact shipped_footprints. Qed.
Print Assumptions C07_shipped_footprints.

(* hence, without a testing gap at the level of the heap model: every shipped block middleware in copy mode ... *)
Theorem C07_shipped_copy_mode : forall DC, dc_contract DC -> forall s h lib h' lib', wf_heap h -> In lib (dom h) ->
  transform_block_mw DC false (shipped_body s) h lib = Some (h', lib') -> no_alias h h' lib'.
Proof. exact (fun DC C s h lib h' lib' => copy_mode_ok DC C (shipped_body s) h lib h' lib' (shipped_footprints s)). Qed.
Print Assumptions C07_shipped_copy_mode.

(* ... every stack (any positive length) of shipped block middlewares, Resolve, SortBlocks, LibraryMiddleware in copy mode *)
Definition shipped_mw (m : mw) : Prop :=
  match m with
  | MwBlock i bd => i = false /\ exists s, bd = shipped_body s
  | MwLibrary i => i = false
  | MwResolve i _ _ => i = false
  | MwSort _ => True
  end.
Theorem C07_shipped_stack : forall DC, dc_contract DC -> forall ms h lib h' lib',
  Forall shipped_mw ms -> ms <> [] -> wf_heap h -> In lib (dom h) ->
  run_stack DC ms h lib = Some (h', lib') -> no_alias h h' lib'.
Proof. exact shipped_stack_ok. Qed.
Print Assumptions C07_shipped_stack.

(* ... and write_string with the REAL default stack [AddEnclosing(copy mode)], for every enclosing table *)
Theorem C07_write_string_default : forall DC, dc_contract DC -> forall kmeta tbl at_auto at_col h lib fmt h',
  wf_heap h -> In lib (dom h) -> In fmt (dom h) ->
  write_string_mw DC (shipped_body (SAddEnclosing kmeta tbl)) at_auto at_col h lib fmt = Some h' ->
  wf_heap h' /\ input_untouched h h'
  /\ (forall p, reach h' lib p <-> reach h lib p) /\ (forall p, reach h' fmt p <-> reach h fmt p).
Proof.
  exact (fun DC C k t a1 a2 h lib fmt h' =>
           write_string_ok DC C (shipped_body (SAddEnclosing k t)) a1 a2 h lib fmt h' (shipped_footprints (SAddEnclosing k t))).
Qed.
Print Assumptions C07_write_string_default.

(* The executable copy used to RUN the model (fuelled, memoised graph copy; cycles and sharing handled as in copy.py)
   satisfies the contract conclusions on EVERY well-formed heap on which it completes (flag true: the fuel did not run
   out and no dangling reference was met).
   This is the conditional half of `dc_contract deepcopy_exec`: that the copy completes on every well-formed heap is
   C07_deepcopy_exec_total, and C07_deepcopy_exec_contract below has no condition.
   The copy is also compared with CPython's copy.deepcopy on real object graphs by the correspondence (op 165) on
   every run. *)
Theorem C07_deepcopy_exec_partial : forall h r h' r', wf_heap h -> In r (dom h) ->
  deepcopy_checked h r = Some (h', r') ->
  deepcopy_exec h r = (h', r')
  /\ wf_heap h' /\ unchanged h h' /\ In r' (dom h') /\ (forall p, reach h' r' p -> ~ In p (dom h)).
Proof.
  exact (fun h r h' r' W D E => let X := deepcopy_checked_exec h r h' r' E in conj X (deepcopy_exec_contract h r h' r' W D X)).
Qed.
Print Assumptions C07_deepcopy_exec_partial.

(* COMPLETION (proofs in Proofs/HeapCopyIso.v and Proofs/HeapCopyTotal.v): on every well-formed heap and every
   root in it the executable copy completes - the fuel S (length h) never runs out and no dangling reference is met.
   The fuel bounds the recursion depth; the memo's keys are pairwise distinct objects of h, a nested non-memoised
   visit has pushed its key first and the memo never shrinks, so `length h < fuel + length memo` holds at every call
   and, with length memo <= length h, leaves at least one unit of fuel at every call. *)
Theorem C07_deepcopy_exec_total : forall h r, wf_heap h -> In r (dom h) ->
  exists h' r', deepcopy_checked h r = Some (h', r') /\ deepcopy_exec h r = (h', r').
Proof. exact deepcopy_total. Qed.
Print Assumptions C07_deepcopy_exec_total.

(* Hence the executable copy IS an instance of the contract that every theorem above assumes of copy.deepcopy:
   dc_contract is inhabited (the hypothesis `dc_contract DC` is not vacuous), and the model that is RUN against the
   implementation (Run/RunHeap.v uses deepcopy_exec) is covered by the theorems, with no side condition. *)
Theorem C07_deepcopy_exec_contract : dc_contract deepcopy_exec.
Proof. exact deepcopy_exec_contract. Qed.
Print Assumptions C07_deepcopy_exec_contract.

(* e.g. the stack theorem, with the hypothesis on DC discharged *)
Theorem C07_stack_exec : forall ms h lib h' lib',
  Forall mw_ok ms -> ms <> [] -> wf_heap h -> In lib (dom h) ->
  run_stack deepcopy_exec ms h lib = Some (h', lib') -> no_alias h h' lib'.
Proof. exact run_stack_exec_ok. Qed.
Print Assumptions C07_stack_exec.

(* The contract above would also be met by a "copy" that is one fresh empty object.  The executable copy is more: a GRAPH
   ISOMORPHISM of everything reachable from the root onto fresh objects (Proofs/HeapCopyIso.v) - the memo m is an injective
   renaming, the copy of every reachable object is that object with every reference renamed and every atom kept, and the
   copy contains nothing else.  This is what "the input library is equal to its prior deep copy" rests on; C09 uses it
   for the links inside a copy. *)
From BP Require Import Proofs.HeapCopyIso.
Theorem C07_deepcopy_exec_iso : forall h r h' r', wf_heap h -> In r (dom h) -> deepcopy_exec h r = (h', r') ->
  exists m,
    memo_get m r = Some r'
    /\ (forall p, reach h r p -> exists p', memo_get m p = Some p' /\ is_copy_of h h' m p p')
    /\ (forall k1 k2 v, memo_get m k1 = Some v -> memo_get m k2 = Some v -> k1 = k2)
    /\ (forall k v, memo_get m k = Some v -> ~ In v (dom h) /\ In v (dom h'))
    /\ unchanged h h'.
Proof. exact deepcopy_exec_iso. Qed.
Print Assumptions C07_deepcopy_exec_iso.

Theorem C07_deepcopy_exec_iso_onto : forall h r h' r', wf_heap h -> In r (dom h) -> deepcopy_exec h r = (h', r') ->
  exists m, memo_get m r = Some r'
    /\ (forall p', reach h' r' p' -> exists p, reach h r p /\ memo_get m p = Some p').
Proof. exact deepcopy_exec_iso_onto. Qed.
Print Assumptions C07_deepcopy_exec_iso_onto.

(* ------------------------------------------------------------------ non-vacuity: a concrete heap.
   Library 1 with blocks [Entry 5 (key 100); DuplicateBlockKeyBlock 10 -> previous 5, duplicate Entry 12 (key 100)],
   one field each; BibtexFormat 9 with value_column = atom 7 ('auto'). *)
Definition ex_entry (md fl : nat) : obj :=
  OInst 3 [(4, PAtom 50); (5, PAtom 51); (6, PRef md); (11, PAtom 52); (7, PAtom 100); (12, PRef fl)].
Definition ex_field (v : Z) : obj := OInst 8 [(10, PAtom 53); (7, PAtom 54); (8, PAtom v)].
Definition ex_heap : heap :=
  [ (1%nat, OInst 2 [(1, PRef 2%nat); (2, PRef 3%nat); (3, PRef 4%nat)]);
    (2%nat, OList [PRef 5%nat; PRef 10%nat]); (3%nat, ODict [(100, PRef 5%nat)]); (4%nat, ODict []);
    (5%nat, ex_entry 6 7); (6%nat, ODict []); (7%nat, OList [PRef 8%nat]); (8%nat, ex_field 55);
    (9%nat, OInst 14 [(22, PAtom 7)]);
    (10%nat, OInst 11 [(4, PAtom 50); (5, PAtom 51); (6, PRef 11%nat); (13, PAtom 4); (14, PRef 12%nat); (7, PAtom 100);
                       (15, PRef 5%nat)]);
    (11%nat, ODict []); (12%nat, ex_entry 13 14); (13%nat, ODict []); (14%nat, OList [PRef 15%nat]); (15%nat, ex_field 56) ].

Example C07_ex_heap_wf : wf_heap_b ex_heap = true.
Proof. vm_compute. reflexivity. Qed.

(* the executable deepcopy meets the contract on this heap, for the library, the duplicate wrapper and the format *)
Example C07_ex_deepcopy_contract :
  dc_contract_on_b deepcopy_exec ex_heap 1 = true /\ dc_contract_on_b deepcopy_exec ex_heap 10 = true
  /\ dc_contract_on_b deepcopy_exec ex_heap 9 = true /\ dc_contract_on_b deepcopy_exec ex_heap 2 = true.
Proof. vm_compute. repeat split. Qed.

Example C07_ex_deepcopy_completes :
  forallb (fun r => match deepcopy_checked ex_heap r with Some _ => true | None => false end) (dom ex_heap) = true.
Proof. vm_compute. reflexivity. Qed.

(* the fuel S (length h) is exactly what a cycle through all objects needs: on the 3-cycle 1 -> 2 -> 3 -> 1 (3 also
   refers to itself) the copy completes and preserves the cycle (copies 4 -> 5 -> 6 -> 4), while with fuel length h
   the same run gives up (the memoised visit closing the cycle needs one unit too).  With an older shadowed binding
   in the association list (length h counts bindings, not objects) it completes as well. *)
Definition ex_cycle : heap :=
  [ (1%nat, OList [PRef 2%nat]); (2%nat, ODict [(7, PRef 3%nat)]); (3%nat, OInst 3 [(4, PRef 1%nat); (5, PRef 3%nat)]) ].
Example C07_ex_cycle :
  wf_heap_b ex_cycle = true
  /\ deepcopy_checked ex_cycle 1
     = Some ((4%nat, OList [PRef 5%nat]) :: (5%nat, ODict [(7, PRef 6%nat)])
             :: (6%nat, OInst 3 [(4, PRef 4%nat); (5, PRef 6%nat)])
             :: (6%nat, OInst 3 []) :: (5%nat, ODict []) :: (4%nat, OList []) :: ex_cycle, 4%nat)
  /\ dc_contract_on_b deepcopy_exec ex_cycle 1 = true
  /\ snd (dc (length ex_cycle) ex_cycle [] 1) = false
  /\ (let h := (1%nat, OList [PRef 2%nat; PRef 1%nat]) :: ex_cycle in
      wf_heap_b h = true /\ dc_contract_on_b deepcopy_exec h 1 = true
      /\ match deepcopy_checked h 1 with Some _ => true | None => false end = true).
Proof. vm_compute. repeat split. Qed.

(* the conclusions of the theorems as a boolean on a concrete run *)
Definition no_alias_b (h : heap) (r : option (heap * nat)) : option (bool * bool) :=
  match r with
  | Some (h', lib') => Some (unchanged_b h h', disjoint_b (reach_b h' lib') (dom h))
  | None => None
  end.

(* copy mode: input untouched AND nothing shared; in-place mode on the same heap: input changed AND shared - so the
   two conclusions are not vacuous.  probe_twice makes the new Library allocate a duplicate wrapper. *)
Example C07_ex_copy_vs_inplace :
  no_alias_b ex_heap (transform_block_mw deepcopy_exec false (probe_set_values 77) ex_heap 1) = Some (true, true)
  /\ no_alias_b ex_heap (transform_block_mw deepcopy_exec true (probe_set_values 77) ex_heap 1) = Some (false, false)
  /\ no_alias_b ex_heap (transform_block_mw deepcopy_exec false probe_twice ex_heap 1) = Some (true, true)
  /\ no_alias_b ex_heap (transform_block_mw deepcopy_exec true probe_identity ex_heap 1) = Some (true, false)
  /\ no_alias_b ex_heap (sort_blocks_mw deepcopy_exec [1%nat; 0%nat] ex_heap 1) = Some (true, true)
  /\ no_alias_b ex_heap (resolve_mw deepcopy_exec false [55] 9 ex_heap 1) = Some (true, true)
  /\ no_alias_b ex_heap (library_mw deepcopy_exec true ex_heap 1) = Some (true, false).
Proof. vm_compute. repeat split. Qed.

(* a body outside footprint_ok (it stores the library it was given) does alias, even in copy mode *)
Example C07_ex_leak :
  no_alias_b ex_heap (transform_block_mw deepcopy_exec false (probe_leak_library 9) ex_heap 1) = Some (true, false).
Proof. vm_compute. repeat split. Qed.

(* shipped bodies on the example heap: NormalizeFieldKeys (key atom 54 -> 540: field.key written, entry.fields a new list)
   and SortFieldsCustom (entry.fields a new sorted list, the order stored as a new list in parser_metadata): copy mode
   untouched and disjoint, in-place mode neither *)
Example C07_ex_shipped :
  no_alias_b ex_heap (transform_block_mw deepcopy_exec false (shipped_body (SNormalizeFieldKeys [(54, 540)])) ex_heap 1) = Some (true, true)
  /\ no_alias_b ex_heap (transform_block_mw deepcopy_exec true (shipped_body (SNormalizeFieldKeys [(54, 540)])) ex_heap 1) = Some (false, false)
  /\ no_alias_b ex_heap (transform_block_mw deepcopy_exec false (shipped_body (SSortFields [(54, 0%nat)] 1 9 (MVList [54]))) ex_heap 1) = Some (true, true)
  /\ no_alias_b ex_heap (transform_block_mw deepcopy_exec true (shipped_body (SSortFields [(54, 0%nat)] 1 9 (MVList [54]))) ex_heap 1) = Some (false, false).
Proof. vm_compute. repeat split. Qed.

(* write_string: format with 'auto' (atom 7): the caller's format object 9 is untouched *)
Example C07_ex_write :
  match write_string_mw deepcopy_exec (probe_set_values 77) 7 12 ex_heap 1 9 with
  | Some h' => unchanged_b ex_heap h' && oobj_eqb (lookup h' 9%nat) (Some (OInst 14 [(22, PAtom 7)]))
  | None => false
  end = true.
Proof. vm_compute. reflexivity. Qed.

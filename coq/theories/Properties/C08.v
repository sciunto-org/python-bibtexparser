(* C08 - Library views stay consistent under any history of add / remove / replace.
   Only statements here; every proof is `exact <lemma>` (Proofs/LibraryProofs.v). *)
From Coq Require Import List NArith ZArith String.
From BP Require Import Model.Blocks Model.Library Spec.C08 Proofs.LibraryProofs.
Import ListNotations.

(* after ANY finite history of add (single, list, fail_on_duplicate_key), remove, replace (both modes) with ANY
   arguments, raising calls included: entries / strings are the Entry / String blocks in block order, the two dict views map exactly the
   keys of the held entries/strings to those objects, no two held entries (strings) share a key, the five class views
   partition blocks - and the only exception ever raised is ValueError (the KeyError / AssertionError sites of
   remove and _cast_to_duplicate are unreachable).  Induction over the history. *)
Theorem C08_inv_reachable : forall ops n,
  Inv (fst (run ops (empty_lib n))) /\ Forall (fun o => o = Done \/ o = Raised EValue) (snd (run ops (empty_lib n))).
Proof. exact inv_any_history. Qed.
Print Assumptions C08_inv_reachable.

(* the same for the inductive notion of reachable state used by the theorems below *)
Theorem C08_inv_reachable_state : forall l, reachable l -> Inv l.
Proof. exact inv_reachable. Qed.
Print Assumptions C08_inv_reachable_state.

(* blocks: add appends one block per argument in order (the argument or its duplicate wrapper) - also when it
   raises; a successful remove deletes, for each argument in turn, the first block == to it and closes the gap;
   a successful replace puts the new block (or its wrapper) at the position of the first block == old and moves
   nothing else *)
Theorem C08_order : forall l, reachable l ->
  (forall bs f, exists added, blocks (fst (add l bs f)) = blocks l ++ added /\ Forall2 placed added bs)
  /\ (forall bs, snd (remove l bs) = Done -> removes_all bs (blocks l) (blocks (fst (remove l bs))))
  /\ (forall old new f, snd (replace l old new f) = Done ->
        exists pre y post x, blocks l = pre ++ y :: post /\ ob_py_eq y old = true
          /\ Forall (fun z => ob_py_eq z old = false) pre
          /\ blocks (fst (replace l old new f)) = pre ++ x :: post /\ placed x new).
Proof. exact order. Qed.
Print Assumptions C08_order.

(* a call that raises ValueError leaves the library equal (Python ==, on ALL EIGHT views: the six list views in
   order, the two dict views as mappings) to what it was - except add(..., fail_on_duplicate_key=True), finding K1.  Covers remove of a missing block (nothing is
   touched, also when a list of blocks is passed), replace of a missing block, and the rollback of replace, which
   re-inserts the CALLER's block: equal, not necessarily identical, to the one that was held *)
Theorem C08_raise_atomic_except_known : forall l o, reachable l -> ~ known_K1 o ->
  snd (apply l o) = Raised EValue -> lib_equal l (fst (apply l o)).
Proof. exact raise_atomic. Qed.
Print Assumptions C08_raise_atomic_except_known.

(* K1 (documented behaviour, pinned by the suite): the raising add has already appended the wrapper *)
Theorem C08_raise_atomic_refuted : exists l o, reachable l /\ op_wf l o /\ snd (apply l o) = Raised EValue
  /\ ~ lib_equal l (fst (apply l o)).
Proof. exact atomic_refuted. Qed.
Print Assumptions C08_raise_atomic_refuted.

(* strings (like entries) is always the String blocks of blocks in that order, and no raising call other than K1
   changes it.  (The string INDEX does change its order in the rollback of a raising replace: C08_example_strings_order;
   the clause guards against `strings` being read off the index, list(dict.values()).) *)
Theorem C08_strings_order : forall l, reachable l ->
  v_strings l = filter is_string_ob (blocks l)
  /\ forall o, ~ known_K1 o -> snd (apply l o) = Raised EValue -> list_equal (v_strings l) (v_strings (fst (apply l o))).
Proof. exact strings_order. Qed.
Print Assumptions C08_strings_order.

(* ---- non-vacuity: a reachable library holding a duplicate wrapper; replace(twin of the held entry, an entry whose
   key is taken) raises and is rolled back: the caller's twin (object 7) now stands where object 0 stood *)
Example C08_example_rollback :
  reachable w_lib3 /\ ~ known_K1 w_op3 /\ snd (apply w_lib3 w_op3) = Raised EValue
  /\ map oid_of (blocks w_lib3) = [0; 1000; 2]%N /\ map oid_of (blocks (fst (apply w_lib3 w_op3))) = [7; 1000; 2]%N.
Proof. exact example_rollback. Qed.

(* replace(String a, a String whose key b is taken) raises; the
   string index is now in the order b, a, but `strings` is unchanged *)
Example C08_example_strings_order :
  reachable w_lib2 /\ ~ known_K1 w_op2 /\ snd (apply w_lib2 w_op2) = Raised EValue
  /\ map fst (v_strings_dict (fst (apply w_lib2 w_op2))) = [lit "b"%string; lit "a"%string]
  /\ map oid_of (v_strings w_lib2) = [0; 1]%N /\ map oid_of (v_strings (fst (apply w_lib2 w_op2))) = [0; 1]%N.
Proof. exact example_strings_order. Qed.

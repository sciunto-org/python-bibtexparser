(* C06 - Written text obeys the BibtexFormat contract and carries every block's content.
   The proofs are in Proofs/WriterProofs.v and Proofs/WriterNoCR.v; the readable contract is Spec/C06.v.
   The clause "the format object is left unchanged" is heap-level: C06_format_unchanged below, on the framework
   model of C07, composed here from the theorems of C07. *)
From Coq Require Import String List NArith ZArith Bool.
From BP Require Import Base.Chars Model.Blocks Gen.Constants Model.Writer Spec.C06 Proofs.WriterProofs.
Import ListNotations.

(* the separator constant of the running module is the ' = ' of the property text *)
Theorem C06_val_sep : val_sep = lit " = ".
Proof. exact val_sep_ok. Qed.
Print Assumptions C06_val_sep.

(* every library of str values (any block mix, failed blocks with their raw text) under every format whose failed-block
   comment has {n} as its only replacement field (needed only when a failed block is present) is written, without
   an exception, as the texts of its blocks in library order joined by the configured separator: between consecutive
   blocks, none after the last; each text is the one the contract prescribes for the block (Spec.C06.block_text) under the
   padding widths the format prescribes (fixed column, or the common minimal column of 'auto') *)
Theorem C06_structure : forall f bs,
  Forall writable bs -> (has_failed bs -> template_ok (f_failed f)) ->
  exists out, write f bs = Val out /\ written f bs out.
Proof. exact write_structure. Qed.
Print Assumptions C06_structure.

(* what "joined by the separator" means: sep between any two non-empty runs of blocks, nothing after the last block *)
Theorem C06_separator : forall sep l1 l2, l1 <> [] -> l2 <> [] -> join sep (l1 ++ l2) = join sep l1 ++ sep ++ join sep l2.
Proof. exact join_app. Qed.
Print Assumptions C06_separator.

(* an entry: header line, then for the field at each position exactly
   indent ++ key ++ padding ++ " = " ++ value ++ [","]? ++ "\n", the comma iff trailing_comma or the field is not the last *)
Theorem C06_field_line : forall indent col tr failed h t k fs kvs,
  str_fields fs = Some kvs ->
  joined (treat_block indent col tr failed (BEntry h t k fs))
  = Some ([c_at] ++ t ++ [c_lb] ++ k ++ [c_comma; c_nl] ++ field_lines indent (width_of col) tr kvs ++ [c_rb; c_nl]).
Proof. exact entry_text. Qed.
Print Assumptions C06_field_line.

Theorem C06_field_line_at : forall indent w tr kvs1 kv kvs2,
  exists pre post,
    field_lines indent w tr (kvs1 ++ kv :: kvs2)
    = pre ++ (indent ++ fst kv ++ spaces (w (fst kv)) ++ lit " = " ++ snd kv
              ++ (if comma_rule tr (List.length kvs1) (List.length (kvs1 ++ kv :: kvs2)) then [c_comma] else []) ++ [c_nl])
          ++ post.
Proof. exact field_lines_app. Qed.
Print Assumptions C06_field_line_at.

Theorem C06_comma : forall tr i n, i < n -> (comma_rule tr i n = true <-> tr = true \/ S i <> n).
Proof. exact comma_rule_spec. Qed.
Print Assumptions C06_comma.

(* the value starts at column len(indent)+col whenever the key is short enough; a longer key gets no padding.
   First on the model's own padding function, then for any padding width allowed by the contract *)
Theorem C06_column : forall indent col key,
  (List.length key + 3 <= col -> List.length (indent ++ key ++ pad col key ++ val_sep) = List.length indent + col)
  /\ (col <= List.length key + 3 -> pad col key = []).
Proof. exact (fun indent col key => conj (column_short indent col key) (column_long col key)). Qed.
Print Assumptions C06_column.

Theorem C06_column_spec : forall indent col key p, pad_width_ok col key p ->
  (List.length key + 3 <= col -> value_start indent key p = List.length indent + col)
  /\ (col <= List.length key + 3 -> p = 0 /\ value_start indent key p = List.length indent + List.length key + 3).
Proof. exact (fun indent col key p H => conj (column_of_short_key indent col key p H) (column_of_long_key indent col key p H)). Qed.
Print Assumptions C06_column_spec.

(* the padding widths (hence the whole text) are determined by the contract *)
Theorem C06_width_determined : forall f bs w1 w2, width_ok f bs w1 -> width_ok f bs w2 -> forall k, w1 k = w2 k.
Proof. exact width_determined. Qed.
Print Assumptions C06_width_determined.

(* 'auto': the column is 3 + the longest key over ALL fields of ALL entries of the library; every value of every entry
   starts in that same column, some field has no padding (when there is a field), and no smaller column fits all keys *)
Theorem C06_auto : forall f bs width indent,
  f_column f = ColAuto -> width_ok f bs width ->
  exists col,
    (forall k, In k (lib_keys bs) -> value_start indent k (width k) = List.length indent + col)
    /\ (lib_keys bs <> [] -> exists k, In k (lib_keys bs) /\ width k = 0)
    /\ (forall col', (forall k, In k (lib_keys bs) -> List.length k + 3 <= col') -> lib_keys bs <> [] -> col <= col')
    /\ col = resolve_column f bs.
Proof. exact auto_common_minimal. Qed.
Print Assumptions C06_auto.

Theorem C06_auto_column : forall bs, auto_column bs = max_key_len bs + 3 /\ is_max_len (max_key_len bs) (lib_keys bs).
Proof. exact (fun bs => conj (auto_column_eq bs) (max_key_len_is_max bs)). Qed.
Print Assumptions C06_auto_column.

(* failed blocks (every ParsingFailedBlock subclass): the CONFIGURED comment with {n} = number of lines of the raw text
   (str.splitlines), a newline, the raw text verbatim, a newline *)
Theorem C06_failed : forall indent width tr failed b,
  is_failed_class b = true -> raw (bhdr b) <> None -> template_ok failed ->
  exists t, joined (treat_failed failed (bhdr b)) = Some t /\ block_text indent width tr failed b t.
Proof. exact treat_failed_text. Qed.
Print Assumptions C06_failed.

Theorem C06_splitlines : forall s, Lines s (splitlines s).
Proof. exact splitlines_Lines. Qed.
Print Assumptions C06_splitlines.

(* outside the contract: a value that is not a str makes the final join raise TypeError *)
Theorem C06_nonstr_raises : forall f bs ps,
  write_pieces (f_indent f) (resolve_column f bs) (f_trailing f) (f_failed f) (f_sep f) bs = Val ps ->
  In PBad ps -> write f bs = Raise ETypeError.
Proof. exact write_nonstr. Qed.
Print Assumptions C06_nonstr_raises.

(* non-vacuity: a library with two entries (keys longer and shorter than the column), an @string, a failed block and a
   duplicate-key block, under a format with 'auto', a multi-character separator and a custom comment with {n} and {{ }} *)
Definition ex_fmt : fmt := mkfmt (lit "  ") ColAuto (lit "---") true (lit "% {{FAIL}} {n}").
Definition ex_entry (k : string) : block :=
  BEntry hdr0 (lit "article") (lit k) [mkfield (lit "title") (VStr (lit "{T}")) None; mkfield (lit "a") (VStr (lit "1")) None].
Definition ex_lib : list block :=
  [ex_entry "k1"; BString hdr0 (lit "s") (VStr (lit "{v}")); BFailed (mkhdr None (Some (lit "x" ++ [c_cr; c_nl] ++ lit "y")) []) EDupKey;
   BDupKey (mkhdr None (Some (lit "@article{k1}")) []) (lit "k1") (ex_entry "k1") (ex_entry "k1")].

Lemma ex_template_ok : template_ok (f_failed ex_fmt).
Proof. intros n. eexists. apply expand_sound. reflexivity. Qed.

Example C06_example_hypotheses : Forall writable ex_lib /\ (has_failed ex_lib -> template_ok (f_failed ex_fmt)) /\ has_failed ex_lib.
Proof.
  split; [|split].
  - repeat (apply Forall_cons; [first [discriminate | reflexivity]|]). apply Forall_nil.
  - intros _. exact ex_template_ok.
  - exists (BFailed (mkhdr None (Some (lit "x" ++ [c_cr; c_nl] ++ lit "y")) []) EDupKey). split; [right; right; left; reflexivity | reflexivity].
Qed.

Example C06_example_output :
  write ex_fmt ex_lib
  = Val (lit "@article{k1," ++ [c_nl] ++ lit "  title = {T}," ++ [c_nl] ++ lit "  a     = 1," ++ [c_nl] ++ lit "}" ++ [c_nl]
         ++ lit "---" ++ lit "@string{s = {v}}" ++ [c_nl]
         ++ lit "---" ++ lit "% {FAIL} 2" ++ [c_nl] ++ lit "x" ++ [c_cr; c_nl] ++ lit "y" ++ [c_nl]
         ++ lit "---" ++ lit "% {FAIL} 1" ++ [c_nl] ++ lit "@article{k1}" ++ [c_nl]).
Proof. vm_compute. reflexivity. Qed.

Example C06_example_lines : Lines (lit "a" ++ [c_cr; c_nl] ++ lit "b" ++ [c_cr] ++ [asc 133]) [lit "a"; lit "b"; []].
Proof.
  assert (NB : forall c, is_break c = false -> no_boundary [c]) by (intros c H; repeat constructor; apply not_break_not_boundary, H).
  apply (L_crlf (lit "a") c_cr c_nl); [apply NB; reflexivity | reflexivity | reflexivity |].
  apply (L_break (lit "b") c_cr [asc 133] [[]]); [apply NB; reflexivity | apply is_break_boundary; reflexivity | |].
  - intros [_ [c2 [r [E E2]]]]. injection E as <- _. discriminate E2.
  - apply (L_break [] (asc 133) [] []); [constructor | apply is_break_boundary; reflexivity | | constructor].
    intros [E _]. discriminate E.
Qed.

(* the validating setter of BibtexFormat.value_column (writer.py): accepted exactly for an int >= 0 (bool counts
   as int) and the string 'auto'; a rejected assignment raises ValueError and leaves the format as it was *)
From BP Require Import Model.FormatSetters.
Theorem C06_value_column_setter : forall f a,
  (snd (assign_value_column f a) = false <->
     (exists z, a = VInt z /\ (0 <= z)%Z) \/ (exists b, a = VBool b) \/ a = VStr s_auto)
  /\ (snd (assign_value_column f a) = true -> fst (assign_value_column f a) = f)
  /\ (forall z, (0 <= z)%Z -> f_column (fst (assign_value_column f (VInt z))) = ColN (Z.to_nat z))
  /\ f_column (fst (assign_value_column f (VStr s_auto))) = ColAuto.
Proof. exact value_column_setter. Qed.
Print Assumptions C06_value_column_setter.

(* "the caller's format object is left unchanged" (heap level; the framework model of C07).  write_string with the
   default stack and ANY per-block body within its footprint, then writer.write, which deep-copies the format before it
   replaces 'auto' by a number: the format object itself, and every object reachable from it, is exactly what it was;
   so is every other pre-existing object.  Stated with the executable deep copy (proved an instance of the contract
   assumed of copy.deepcopy: C07_deepcopy_exec_contract), hence without any hypothesis on the copy. *)
From BP Require Import Model.Heap Model.HeapMw Spec.C07 Proofs.HeapProofs Proofs.HeapCopyTotal.
Theorem C06_format_unchanged : forall bd at_auto at_col h lib fmt h',
  footprint_ok bd -> wf_heap h -> In lib (dom h) -> In fmt (dom h) ->
  write_string_mw deepcopy_exec bd at_auto at_col h lib fmt = Some h' ->
  lookup h' fmt = lookup h fmt /\ (forall p, reach h' fmt p <-> reach h fmt p) /\ unchanged h h'.
Proof.
  intros bd a1 a2 h lib fmt h' F W L D E.
  destruct (write_string_ok deepcopy_exec deepcopy_exec_contract bd a1 a2 h lib fmt h' F W L D E) as (_ & U & _ & R).
  split; [exact (U fmt D) | split; [exact R | exact U]].
Qed.
Print Assumptions C06_format_unchanged.

(* the writer introduces no carriage return: the output holds one only if the library or the format does.  (Together with
   the text layer of Model/TextIO.v this is why a library without carriage returns goes through a file unchanged:
   C20_text_written_library_survives_the_file.) *)
From BP Require Import Proofs.WriterNoCR.
Theorem C06_write_no_cr : forall f bs s,
  fmt_ok f = true -> forallb block_ok bs = true -> write f bs = Val s -> ok s = true.
Proof. exact write_no_cr. Qed.
Print Assumptions C06_write_no_cr.

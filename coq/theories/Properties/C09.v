(* C09 - duplicate keys are never merged or dropped: first wins, the rest are flagged.
   The proofs are in Proofs/DupProofs.v (Library.add, the splitter's field bookkeeping), Proofs/GrammarCorollaries.v
   (documents of the dialect grammar) and Proofs/HeapCopyIso.v (object level).  (That a well-formed document yields one raw block per source block
   is C02; here: what Library.add makes of ANY sequence of raw blocks, and what the splitter emits for repeated
   field names in ANY entry.) *)
From Coq Require Import String List NArith ZArith.
From BP Require Import Model.Blocks Model.LibAdd Model.Splitter Spec.C09 Proofs.DupProofs.
Import ListNotations.

(* the library's block list is the source list with every later same-key Entry / String replaced, at its own
   position, by a duplicate-key block exposing the key, the FIRST block with that key and the complete duplicate *)
Theorem C09_classify : forall bs, rebuild bs = flag_all [] bs.
Proof. exact rebuild_flag_all. Qed.
Print Assumptions C09_classify.

Theorem C09_count : forall bs, length (rebuild bs) = length bs.
Proof. exact rebuild_length. Qed.
Print Assumptions C09_count.

Theorem C09_position : forall bs i d, i < length bs -> nth i (rebuild bs) d = flagged (firstn i bs) (nth i bs d).
Proof. exact rebuild_nth. Qed.
Print Assumptions C09_position.

(* first wins: the two key indexes map each key to the first source block with that key; duplicate-field blocks
   are never registered *)
Theorem C09_first_wins_entries : forall bs k, dict_get (ents (lib_of bs)) k = first_entry k bs.
Proof. exact entries_dict_first. Qed.
Print Assumptions C09_first_wins_entries.
Theorem C09_first_wins_strings : forall bs k, dict_get (strs (lib_of bs)) k = first_string k bs.
Proof. exact strings_dict_first. Qed.
Print Assumptions C09_first_wins_strings.
Theorem C09_dupfield_not_registered : forall bs k,
  dict_get (ents (lib_of bs)) k = None <-> (forall h t f, ~ In (BEntry h t k f) bs).
Proof. exact entry_key_absent_iff. Qed.
Print Assumptions C09_dupfield_not_registered.

Theorem C09_split_is_flagged : forall t bs, split_raw t = Blocks bs -> split t = Blocks (flag_all [] bs).
Proof. exact split_is_flagged. Qed.
Print Assumptions C09_split_is_flagged.

(* for EVERY text: an emitted plain entry has pairwise distinct field names; an entry that repeats a field name is
   emitted as a duplicate-field block whose keys are exactly the names occurring at least twice and whose inner
   entry (same header) still has every field occurrence *)
Theorem C09_dup_fields : forall t bs, split_raw t = Blocks bs -> Forall dup_ok bs.
Proof. exact split_raw_dup_ok. Qed.
Print Assumptions C09_dup_fields.

(* incremental parsing (Splitter.split(library=L), parse_string(text, library=L)): the blocks of the text are added to
   the library that already holds `prev`; the result is what adding all blocks in one go gives - in particular every
   duplicate in the new text points at the first block of the WHOLE library with that key *)
Theorem C09_incremental : forall prev t bs, split_raw t = Blocks bs ->
  split_into prev t = Blocks (flag_all [] (prev ++ bs)).
Proof. exact split_into_flag_all. Qed.
Print Assumptions C09_incremental.

Theorem C09_incremental_fresh : forall t, split_into [] t = split t.
Proof. exact split_into_nil. Qed.
Print Assumptions C09_incremental_fresh.

(* ---- on documents of the dialect grammar (entry keys, string names AND field names may repeat): the number of
   returned blocks equals the number of source blocks and the i-th block is the flagged i-th source block *)
From BP Require Import Model.Grammar Proofs.GrammarCorollaries.
Theorem C09_doc_classify : forall d, wf_doc d -> split (render d) = Blocks (flag_all [] (expected_dup d)).
Proof. exact C09_doc_classify_dup. Qed.
Print Assumptions C09_doc_classify.

Theorem C09_doc_count : forall d, wf_doc d -> forall bs, split (render d) = Blocks bs -> List.length bs = List.length (d_items d).
Proof. exact C09_doc_count_dup. Qed.
Print Assumptions C09_doc_count.

(* the ground truth with duplicate field names: exactly the duplicate-field wrapping the property describes *)
Theorem C09_doc_dup_fields : forall d, wf_doc d -> split_raw (render d) = Blocks (expected_dup d) /\ Forall dup_ok (expected_dup d).
Proof. intros d H. split; [exact (split_render_dup d H) | exact (expected_dup_ok d H)]. Qed.
Print Assumptions C09_doc_dup_fields.

(* ---- at object level (heap model of C07): a LIBRARY-LEVEL deep copy - what ResolveStringReferencesMiddleware in copy mode,
   the block sorter and copy.deepcopy make - keeps the link of every duplicate-key block inside the copy: the copy of the
   wrapper points at the copy of the first block, and that copy is the member of the copied block list at the first block's
   position (not the original, not a private second copy).  Proved from the isomorphism theorem of the executable deep copy
   (Proofs/HeapCopyIso.v).  The PER-BLOCK copies of a copy-mode block middleware do not have this property on the unchanged
   tree: known finding K13. *)
From BP Require Import Model.Heap Model.HeapMw Proofs.HeapCopyIso.
Theorem C09_copy_keeps_previous_block_live : forall h lib h' lib' bl xs i j w b,
  wf_heap h -> In lib (dom h) -> deepcopy_exec h lib = (h', lib') ->
  attr_list h lib A_blocks = Some (bl, xs) -> nth_error xs i = Some (PRef w) -> nth_error xs j = Some (PRef b) ->
  getattr h w A_previous_block = Some (PRef b) ->
  exists bl' xs' w' b',
    attr_list h' lib' A_blocks = Some (bl', xs') /\ nth_error xs' i = Some (PRef w') /\ nth_error xs' j = Some (PRef b')
    /\ getattr h' w' A_previous_block = Some (PRef b')
    /\ ~ In b' (dom h) /\ ~ In w' (dom h).
Proof. exact deepcopy_keeps_previous_block_live. Qed.
Print Assumptions C09_copy_keeps_previous_block_live.

(* the hypotheses are met by a library with one entry (object 5) and its duplicate (wrapper 10, previous_block = 5), and the
   conclusion is what the executable copy computes on it: blocks [16; 21], previous_block of 21 is 16 *)
Local Open Scope Z_scope.
Definition ex_lib_heap : heap :=
  [ (1%nat, OInst 2 [(1, PRef 2%nat); (2, PRef 3%nat); (3, PRef 4%nat)]);
    (2%nat, OList [PRef 5%nat; PRef 10%nat]); (3%nat, ODict [(100, PRef 5%nat)]); (4%nat, ODict []);
    (5%nat, OInst 3 [(7, PAtom 100)]);
    (10%nat, OInst 11 [(14, PRef 12%nat); (7, PAtom 100); (15, PRef 5%nat)]);
    (12%nat, OInst 3 [(7, PAtom 100)]) ].
Example C09_copy_keeps_previous_block_live_ex :
  wf_heap_b ex_lib_heap = true
  /\ attr_list ex_lib_heap 1 A_blocks = Some (2%nat, [PRef 5%nat; PRef 10%nat])
  /\ getattr ex_lib_heap 10 A_previous_block = Some (PRef 5%nat)
  /\ (let '(h', lib') := deepcopy_exec ex_lib_heap 1 in
      match attr_list h' lib' A_blocks with
      | Some (_, [PRef b'; PRef w']) => getattr h' w' A_previous_block = Some (PRef b') /\ b' <> 5%nat
      | _ => False
      end).
Proof. vm_compute. repeat split; auto; discriminate. Qed.

(* K13, in the model: the per-block copies of a copy-mode BLOCK middleware (BlockMiddleware.transform: deepcopy(block) for
   every block, then Library(blocks)) do NOT keep the link.  With the identity body on the library above the result has the
   blocks [13; 14] and the wrapper 14 points at object 16, a private copy of the first block that is in no block list.
   The heap model transcribes the shipped framework, so the defect of the unchanged tree shows here as a theorem. *)

Theorem C09_block_copy_mode_refuted_K13 :
  exists h lib h' lib' bl xs w p,
    wf_heap_b h = true
    /\ transform_block_mw deepcopy_exec false probe_identity h lib = Some (h', lib')
    /\ attr_list h' lib' A_blocks = Some (bl, xs) /\ In (PRef w) xs
    /\ getattr h' w A_previous_block = Some (PRef p) /\ ~ In (PRef p) xs.
Proof.
  exists ex_lib_heap, 1%nat.
  destruct (transform_block_mw deepcopy_exec false probe_identity ex_lib_heap 1) as [[h' lib']|] eqn:E;
    [|vm_compute in E; discriminate].
  (* the addresses the run yields: 17 is the new block list, 13 and 14 its members, 16 the private copy *)
  exists h', lib', 17%nat, [PRef 13%nat; PRef 14%nat], 14%nat, 16%nat.
  vm_compute in E. inversion E; subst. vm_compute.
  repeat split; auto. intros [H|[H|[]]]; discriminate.
Qed.
Print Assumptions C09_block_copy_mode_refuted_K13.

(* ... while the same framework in IN-PLACE mode keeps it (the blocks are not copied: the wrapper and its first block are the
   objects they were, and the new library lists both) - K13 is specific to the per-block copies *)
Example C09_block_inplace_mode_keeps_link :
  match transform_block_mw deepcopy_exec true probe_identity ex_lib_heap 1 with
  | Some (h', lib') =>
      match attr_list h' lib' A_blocks with
      | Some (_, [PRef b'; PRef w']) => getattr h' w' A_previous_block = Some (PRef b') /\ b' = 5%nat /\ w' = 10%nat
      | _ => False
      end
  | None => False
  end.
Proof. vm_compute. repeat split. Qed.

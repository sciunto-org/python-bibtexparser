(* C01 - parsing and re-writing never raise: bad input becomes failed blocks.  First the splitter alone, then
   parse_string and write_string with their default middleware stacks. *)
From Coq Require Import List NArith.
From BP Require Import Base.Chars Model.Blocks Model.Lexer Model.Splitter Proofs.SplitTotal.

(* for EVERY text (any size, nesting depth, line count, syntax errors) splitting returns blocks: the two
   "should never happen" exceptions of splitter.py are unreachable and no scanner gets stuck *)
Theorem C01_split_raw_total : forall t, exists bs, split_raw t = Blocks bs.
Proof. exact split_raw_total. Qed.
Print Assumptions C01_split_raw_total.

Theorem C01_split_total : forall t, exists bs, split t = Blocks bs.
Proof. exact split_total. Qed.
Print Assumptions C01_split_total.

(* the look-ahead of the mark regex: after every @-mark the input continues with plain characters and then an
   opening-brace mark (never another mark, never end of input) *)
Theorem C01_at_then_brace : forall pb c r, classify1 pb c r = Some MAt -> good_head (classify (N.eqb c c_bs) r).
Proof. exact at_then_brace. Qed.
Print Assumptions C01_at_then_brace.

From BP Require Import Model.Pipeline Proofs.PipelineTotal.

(* parse_string (split, resolve @string references, remove enclosings) returns a library for EVERY text *)
Theorem C01_parse_total : forall t, exists bs, parse_default t = PVal bs.
Proof. exact parse_default_total. Qed.
Print Assumptions C01_parse_total.

(* write_string (default stack: add enclosings on a copy; writer) on that library returns a string for EVERY text *)
Theorem C01_parse_write_total : forall t, exists s, parse_write t = PVal s.
Proof. exact parse_write_total. Qed.
Print Assumptions C01_parse_write_total.

(* ... and for every format whose failed-block comment template expands *)
Theorem C01_write_total : forall f bs, Forall good_block bs -> template_ok f -> exists s, write_default f bs = PVal s.
Proof. exact write_default_total. Qed.
Print Assumptions C01_write_total.

(* syntax errors surface only as failed blocks stored in the library: the default stack drops or adds no block,
   and every failed block carries its raw text (its error is part of the constructor) *)
Theorem C01_failed_carry : forall t bs, parse_default t = PVal bs ->
  Forall (fun b => is_failed_class b = true -> exists r, raw (bhdr b) = Some r) bs.
Proof. exact failed_carry. Qed.
Print Assumptions C01_failed_carry.

Theorem C01_no_block_lost : forall t bs0 bs, split t = Blocks bs0 -> parse_default t = PVal bs -> length bs = length bs0.
Proof. exact parse_default_length. Qed.
Print Assumptions C01_no_block_lost.

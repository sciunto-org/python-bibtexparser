(* C07 - the heap: Python objects with identity.  Definitions only (proofs: Proofs/HeapProofs.v).

   A Python value is an atom (str, int, None, bool, an exception object: immutable, or - for exceptions -
   excluded by the property text) or a reference to a mutable object.  Objects are lists, dicts (insertion
   ordered, atom keys) and instances (class code + attribute dict in insertion order).  A heap is a finite
   map oid -> obj kept as an association list, NEWEST BINDING FIRST: a write prepends a binding that shadows
   the older one, an allocation prepends a binding for the fresh oid 1 + max. *)
From Coq Require Import List ZArith Bool Arith.
Import ListNotations.

Inductive pv := PAtom (a : Z) | PRef (o : nat).
Inductive obj := OList (l : list pv) | ODict (d : list (Z * pv)) | OInst (cls : Z) (attrs : list (Z * pv)).
Definition heap := list (nat * obj).

Fixpoint lookup (h : heap) (o : nat) : option obj :=
  match h with
  | [] => None
  | (k, v) :: r => if Nat.eqb k o then Some v else lookup r o
  end.
Definition dom (h : heap) : list nat := map fst h.
Definition fresh (h : heap) : nat := S (fold_right Nat.max 0 (dom h)).
Definition set_obj (h : heap) (o : nat) (ob : obj) : heap := (o, ob) :: h.
Definition alloc (h : heap) (ob : obj) : heap * nat := let o := fresh h in ((o, ob) :: h, o).

(* outgoing references *)
Definition pv_refs (v : pv) : list nat := match v with PRef o => [o] | PAtom _ => [] end.
Definition obj_pvs (ob : obj) : list pv :=
  match ob with OList l => l | ODict d => map snd d | OInst _ a => map snd a end.
Definition refs_of (ob : obj) : list nat := flat_map pv_refs (obj_pvs ob).

(* reach h r p: object p is reachable from object r (r itself included) *)
Inductive reach (h : heap) : nat -> nat -> Prop :=
| reach_here : forall r, reach h r r
| reach_step : forall r ob q p, lookup h r = Some ob -> In q (refs_of ob) -> reach h q p -> reach h r p.

(* no dangling reference *)
Definition wf_heap (h : heap) : Prop :=
  forall p ob q, lookup h p = Some ob -> In q (refs_of ob) -> In q (dom h).

(* every object that existed in h is still there, with the same content, in h' *)
Definition unchanged (h h' : heap) : Prop := forall p, In p (dom h) -> lookup h' p = lookup h p.

(* ------------------------------------------------------------------ executable versions (fuelled) *)
Definition mem_nat (x : nat) (l : list nat) : bool := existsb (Nat.eqb x) l.

(* depth-first: the objects reachable from o, added to those already seen *)
Fixpoint reach_list (fuel : nat) (h : heap) (seen : list nat) (o : nat) : list nat :=
  match fuel with
  | 0 => seen
  | S f =>
      if mem_nat o seen then seen
      else match lookup h o with
           | None => o :: seen
           | Some ob => fold_left (fun s q => reach_list f h s q) (refs_of ob) (o :: seen)
           end
  end.
Definition reach_b (h : heap) (r : nat) : list nat := reach_list (S (length h)) h [] r.

Definition wf_heap_b (h : heap) : bool :=
  forallb (fun kv => forallb (fun q => mem_nat q (dom h)) (refs_of (snd kv))) h.

Definition pv_eqb (a b : pv) : bool :=
  match a, b with PAtom x, PAtom y => Z.eqb x y | PRef x, PRef y => Nat.eqb x y | _, _ => false end.
Fixpoint list_eqb {T} (e : T -> T -> bool) (a b : list T) : bool :=
  match a, b with [] , [] => true | x :: a', y :: b' => e x y && list_eqb e a' b' | _, _ => false end.
Definition kv_eqb (a b : Z * pv) : bool := Z.eqb (fst a) (fst b) && pv_eqb (snd a) (snd b).
Definition obj_eqb (a b : obj) : bool :=
  match a, b with
  | OList x, OList y => list_eqb pv_eqb x y
  | ODict x, ODict y => list_eqb kv_eqb x y
  | OInst c x, OInst d y => Z.eqb c d && list_eqb kv_eqb x y
  | _, _ => false
  end.
Definition oobj_eqb (a b : option obj) : bool :=
  match a, b with Some x, Some y => obj_eqb x y | None, None => true | _, _ => false end.
Definition unchanged_b (h h' : heap) : bool := forallb (fun p => oobj_eqb (lookup h' p) (lookup h p)) (dom h).
Definition disjoint_b (l : list nat) (d : list nat) : bool := forallb (fun p => negb (mem_nat p d)) l.

(* ------------------------------------------------------------------ CPython's copy.deepcopy, executable instance.
   Memoised graph copy: one copy per object per call (sharing and cycles inside the copied graph are preserved),
   atoms are shared.  As in copy.py the new object is created and entered into the memo BEFORE its content is
   copied.  Fuel bounds the recursion depth; S (length h) suffices because every non-memoised visit adds one
   object of h to the memo. *)
Definition memo := list (nat * nat).
Fixpoint memo_get (m : memo) (o : nat) : option nat :=
  match m with [] => None | (k, v) :: r => if Nat.eqb k o then Some v else memo_get r o end.

Definition rebuild (ob : obj) (l : list pv) : obj :=
  match ob with
  | OList _ => OList l
  | ODict d => ODict (combine (map fst d) l)
  | OInst c a => OInst c (combine (map fst a) l)
  end.
Definition shell (ob : obj) : obj :=
  match ob with OList _ => OList [] | ODict _ => ODict [] | OInst c _ => OInst c [] end.

(* copy the elements of a list / the values of a dict or __dict__ left to right, threading heap and memo;
   `rec` is the copy of one referenced object *)
Fixpoint copy_pvs (rec : heap -> memo -> nat -> heap * memo * nat * bool) (l : list pv) (h : heap) (m : memo)
  : heap * memo * list pv * bool :=
  match l with
  | [] => (h, m, [], true)
  | PAtom a :: r => let '(h2, m2, r', ok) := copy_pvs rec r h m in (h2, m2, PAtom a :: r', ok)
  | PRef q :: r =>
      let '(h1, m1, q', ok1) := rec h m q in
      let '(h2, m2, r', ok2) := copy_pvs rec r h1 m1 in (h2, m2, PRef q' :: r', ok1 && ok2)
  end.

(* the flag is false iff the fuel ran out or a dangling reference was met (then the result is not a copy) *)
Fixpoint dc (fuel : nat) (h : heap) (m : memo) (o : nat) : heap * memo * nat * bool :=
  match fuel with
  | 0 => (h, m, o, false)
  | S f =>
      match memo_get m o with
      | Some o' => (h, m, o', true)
      | None =>
          match lookup h o with
          | None => (h, m, o, false)
          | Some ob =>
              let o' := fresh h in
              let '(h2, m2, l', ok) := copy_pvs (dc f) (obj_pvs ob) (set_obj h o' (shell ob)) ((o, o') :: m) in
              (set_obj h2 o' (rebuild ob l'), m2, o', ok)
          end
      end
  end.

Definition deepcopy_exec (h : heap) (r : nat) : heap * nat :=
  let '(h', _, r', _) := dc (S (length h)) h [] r in (h', r').
(* the same, reporting whether the copy completed *)
Definition deepcopy_checked (h : heap) (r : nat) : option (heap * nat) :=
  let '(h', _, r', ok) := dc (S (length h)) h [] r in if ok then Some (h', r') else None.

(* the contract of a deepcopy call on one concrete heap, as a boolean (used on the Example heaps) *)
Definition dc_contract_on_b (DC : heap -> nat -> heap * nat) (h : heap) (r : nat) : bool :=
  let '(h', r') := DC h r in
  wf_heap_b h' && unchanged_b h h' && mem_nat r' (dom h') && disjoint_b (reach_b h' r') (dom h).

(* The runtime's TEXT LAYER under parse_file / write_file (entrypoint.py:139-142, 166-170):

       open(path, encoding=enc).read()      = universal newlines ( codec.decode ( bytes of the file ) )
       open(path, "w").write(s)             = codec.encode ( s )     (newline=None writes os.linesep for "\n"; "\n" here)

   for the three codecs of the property's quantifier that are algorithms rather than tables: utf-8, latin-1 and utf-16
   (gbk is a table: it stays an oracle).  Bytes and code points are integers; a Python str may hold any code point
   0..0x10FFFF including lone surrogates, which the strict encoders refuse.  Only success/failure and the result are
   modelled, not the position reported in a UnicodeError.  CPython's decoders are compared with these on every run
   (ops 180 and 181, stream `textio`). *)
From Coq Require Import List ZArith Bool Lia.
Import ListNotations.
Local Open Scope Z_scope.

Definition byte_ok (b : Z) : bool := (0 <=? b) && (b <=? 255).
Definition bytes_ok (bs : list Z) : bool := forallb byte_ok bs.
Definition cp_ok (c : Z) : bool := (0 <=? c) && (c <=? 1114111).              (* what a str can hold *)
Definition surrogate (c : Z) : bool := (55296 <=? c) && (c <=? 57343).         (* D800..DFFF *)
Definition scalar (c : Z) : bool := cp_ok c && negb (surrogate c).             (* what the strict codecs accept *)
Definition text_ok (s : list Z) : bool := forallb cp_ok s.
Definition scalars (s : list Z) : bool := forallb scalar s.

(* ---------------------------------------------------------------- utf-8 *)
Definition cont (b : Z) : bool := (128 <=? b) && (b <=? 191).

Definition utf8_enc_cp (c : Z) : list Z :=
  if c <? 128 then [c]
  else if c <? 2048 then [192 + c / 64; 128 + c mod 64]
  else if c <? 65536 then [224 + c / 4096; 128 + (c / 64) mod 64; 128 + c mod 64]
  else [240 + c / 262144; 128 + (c / 4096) mod 64; 128 + (c / 64) mod 64; 128 + c mod 64].

Fixpoint utf8_encode (s : list Z) : option (list Z) :=
  match s with
  | [] => Some []
  | c :: r => if scalar c then option_map (app (utf8_enc_cp c)) (utf8_encode r) else None
  end.

(* strict decoder: no overlong forms, no surrogates, nothing above 10FFFF, no truncated sequence *)
Fixpoint utf8_decode (bs : list Z) : option (list Z) :=
  match bs with
  | [] => Some []
  | b0 :: r0 =>
      if (0 <=? b0) && (b0 <? 128) then option_map (cons b0) (utf8_decode r0)
      else if (194 <=? b0) && (b0 <=? 223) then
        match r0 with
        | b1 :: r1 => if cont b1 then option_map (cons ((b0 - 192) * 64 + (b1 - 128))) (utf8_decode r1) else None
        | _ => None
        end
      else if (224 <=? b0) && (b0 <=? 239) then
        match r0 with
        | b1 :: b2 :: r2 =>
            let c := (b0 - 224) * 4096 + (b1 - 128) * 64 + (b2 - 128) in
            if cont b1 && cont b2 && (2048 <=? c) && negb (surrogate c)
            then option_map (cons c) (utf8_decode r2) else None
        | _ => None
        end
      else if (240 <=? b0) && (b0 <=? 244) then
        match r0 with
        | b1 :: b2 :: b3 :: r3 =>
            let c := (b0 - 240) * 262144 + (b1 - 128) * 4096 + (b2 - 128) * 64 + (b3 - 128) in
            if cont b1 && cont b2 && cont b3 && (65536 <=? c) && (c <=? 1114111)
            then option_map (cons c) (utf8_decode r3) else None
        | _ => None
        end
      else None
  end.

(* ---------------------------------------------------------------- latin-1 *)
Definition latin1_decode (bs : list Z) : option (list Z) := Some bs.
Definition latin1_encode (s : list Z) : option (list Z) :=
  if forallb (fun c => (0 <=? c) && (c <=? 255)) s then Some s else None.

(* ---------------------------------------------------------------- utf-16 *)
(* code units *)
Fixpoint units_le (bs : list Z) : option (list Z) :=
  match bs with
  | [] => Some []
  | b0 :: b1 :: r => option_map (cons (b0 + b1 * 256)) (units_le r)
  | _ => None                                                       (* truncated data *)
  end.
Fixpoint units_be (bs : list Z) : option (list Z) :=
  match bs with
  | [] => Some []
  | b0 :: b1 :: r => option_map (cons (b0 * 256 + b1)) (units_be r)
  | _ => None
  end.
Definition hi_sur (u : Z) : bool := (55296 <=? u) && (u <=? 56319).           (* D800..DBFF *)
Definition lo_sur (u : Z) : bool := (56320 <=? u) && (u <=? 57343).           (* DC00..DFFF *)
Fixpoint units_decode (us : list Z) : option (list Z) :=
  match us with
  | [] => Some []
  | u :: r =>
      if hi_sur u then
        match r with
        | u2 :: r2 => if lo_sur u2 then option_map (cons (65536 + (u - 55296) * 1024 + (u2 - 56320))) (units_decode r2) else None
        | [] => None
        end
      else if lo_sur u then None
      else option_map (cons u) (units_decode r)
  end.
Definition units_of_cp (c : Z) : list Z :=
  if c <? 65536 then [c] else [55296 + (c - 65536) / 1024; 56320 + (c - 65536) mod 1024].
Fixpoint units_encode (s : list Z) : option (list Z) :=
  match s with
  | [] => Some []
  | c :: r => if scalar c then option_map (app (units_of_cp c)) (units_encode r) else None
  end.
Definition bytes_le (us : list Z) : list Z := flat_map (fun u => [u mod 256; u / 256]) us.
Definition bytes_be (us : list Z) : list Z := flat_map (fun u => [u / 256; u mod 256]) us.

(* codec "utf-16" as open() uses it (the INCREMENTAL decoder of encodings/utf_16.py, not bytes.decode): a byte order
   mark selects the order and is dropped; a non-empty stream WITHOUT one is refused ("UTF-16 stream does not start with
   BOM").  The encoder writes the mark of the native order - FF FE on the little-endian machines the checks run on (the
   harness verifies sys.byteorder) - and little-endian units. *)
Definition utf16_decode (bs : list Z) : option (list Z) :=
  match bs with
  | [] => Some []
  | 255 :: 254 :: r => match units_le r with Some us => units_decode us | None => None end
  | 254 :: 255 :: r => match units_be r with Some us => units_decode us | None => None end
  | _ => None
  end.
Definition utf16_encode (s : list Z) : option (list Z) :=
  option_map (fun us => 255 :: 254 :: bytes_le us) (units_encode s).

(* ---------------------------------------------------------------- universal newlines (reading, newline=None) *)
Fixpoint nl_read (s : list Z) : list Z :=
  match s with
  | [] => []
  | 13 :: r => 10 :: match r with 10 :: r' => nl_read r' | _ => nl_read r end
  | c :: r => c :: nl_read r
  end.

(* ---------------------------------------------------------------- the text layer *)
Inductive codec := Utf8 | Latin1 | Utf16.
Definition decode (e : codec) (bs : list Z) : option (list Z) :=
  match e with Utf8 => utf8_decode bs | Latin1 => latin1_decode bs | Utf16 => utf16_decode bs end.
Definition encode (e : codec) (s : list Z) : option (list Z) :=
  match e with Utf8 => utf8_encode s | Latin1 => latin1_encode s | Utf16 => utf16_encode s end.
Definition read_text (e : codec) (bs : list Z) : option (list Z) := option_map nl_read (decode e bs).
Definition write_text (e : codec) (s : list Z) : option (list Z) := encode e s.     (* "\n" -> os.linesep = "\n" *)

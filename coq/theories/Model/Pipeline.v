(* The public entry points with their default stacks, composed from the engine models (definitions only):
     parse_string(text)              = RemoveEnclosing (ResolveStringReferences (Splitter(text).split()))
     write_string(library, fmt)      = writer.write (AddEnclosing(default '{', reuse False, enclose_integers True) library, fmt)
   (entrypoint.py, middlewares/parsestack.py). *)
From Coq Require Import List NArith ZArith Bool.
From BP Require Import Base.Chars Model.Blocks Model.LibAdd Model.Lexer Model.Splitter Model.Enclosing
  Model.Interpolate Model.Writer.
Import ListNotations.

Inductive pres (T : Type) := PVal (x : T) | PRaise | PSkip.
Arguments PVal {T} x.
Arguments PRaise {T}.
Arguments PSkip {T}.

Definition parse_default (t : str) : pres (list block) :=
  match split t with
  | Raised => PRaise
  | Blocks bs =>
      match default_stack bs with
      | Enclosing.Val bs' => PVal bs'
      | Enclosing.Raise _ => PRaise
      | Enclosing.Skip => PSkip
      end
  end.

Definition default_add : addcfg := mkadd false true [c_lb].

Definition write_default (f : fmt) (bs : list block) : pres str :=
  match add_lib default_add bs with
  | Enclosing.Val bs' =>
      match write f bs' with
      | Writer.Val s => PVal s
      | Writer.Raise _ => PRaise
      | Writer.Skip => PSkip
      end
  | Enclosing.Raise _ => PRaise
  | Enclosing.Skip => PSkip
  end.

(* parse -> write -> parse -> write *)
Definition roundtrip (f : fmt) (t : str) : pres (str * list block * str) :=
  match parse_default t with
  | PVal l1 =>
      match write_default f l1 with
      | PVal t1 =>
          match parse_default t1 with
          | PVal l2 =>
              match write_default f l2 with
              | PVal t2 => PVal (t1, l2, t2)
              | PRaise => PRaise | PSkip => PSkip
              end
          | PRaise => PRaise | PSkip => PSkip
          end
      | PRaise => PRaise | PSkip => PSkip
      end
  | PRaise => PRaise | PSkip => PSkip
  end.

(* parse_string then write_string with the default format *)
Definition parse_write (t : str) : pres str :=
  match parse_default t with
  | PVal l1 => write_default default_fmt l1
  | PRaise => PRaise | PSkip => PSkip
  end.

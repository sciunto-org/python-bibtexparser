(* middlewares/sorting_entry_fields.py: SortFieldsAlphabeticallyMiddleware, SortFieldsCustomMiddleware.
   `sorted` is CPython's stable sort; it is modelled by the insertion sort of Base/StableSort.v (which is
   THE stable sorted permutation, see [stable_sort_unique]).  Definitions only. *)
From Coq Require Import String List NArith ZArith Bool Arith.
From BP Require Import Base.Chars Base.StableSort Model.Blocks Model.LibRebuild.
Import ListNotations.

(* ---- alphabetical:  sorted(entry.fields, key=lambda f: f.key)  -- str order = code points *)
Definition alpha_le (f g : field) : bool := str_leb (fkey f) (fkey g).
Definition sort_alpha (fs : list field) : list field := isort alpha_le fs.

Definition alpha_meta_key : str := lit "sorted_fields_alphabetically"%string.

Definition alpha_block : block -> block :=
  on_entry (fun h => set_meta h alpha_meta_key (VBool true)) sort_alpha.

(* ---- custom order *)
(* the constructor: self._order, or ValueError (None) when the folded list has duplicates *)
Definition fold_key (case_sensitive : bool) (k : str) : str := if case_sensitive then k else lower k.

Fixpoint has_dup (l : list str) : bool :=        (* len(l) != len(set(l)) *)
  match l with
  | [] => false
  | x :: r => mem_str x r || has_dup r
  end.

Definition custom_ctor (case_sensitive : bool) (order : list str) : option (list str) :=
  let o := map (fold_key case_sensitive) order in
  if has_dup o then None else Some o.

(* _sort_key: self._order.index(key), or len(self._order) on ValueError *)
Definition custom_rank (case_sensitive : bool) (ord : list str) (f : field) : nat :=
  match index_of (fold_key case_sensitive (fkey f)) ord with
  | Some i => i
  | None => length ord
  end.

Definition custom_le (cs : bool) (ord : list str) (f g : field) : bool :=
  Nat.leb (custom_rank cs ord f) (custom_rank cs ord g).
Definition sort_custom (cs : bool) (ord : list str) (fs : list field) : list field :=
  isort (custom_le cs ord) fs.

Definition custom_meta_key : str := lit "sorted_fields_custom"%string.

(* the object stored in the metadata is a copy of self._order: a list when folding, otherwise a sequence of
   the kind the caller passed (tuple or list) *)
Definition order_value (cs as_tuple : bool) (ord : list str) : value :=
  if cs && as_tuple then VTuple (map VStr ord) else VList (map VStr ord).

Definition custom_block (cs as_tuple : bool) (ord : list str) : block -> block :=
  on_entry (fun h => set_meta h custom_meta_key (order_value cs as_tuple ord)) (sort_custom cs ord).

(* Stable sorting by a total preorder given as a boolean [le].

   CPython's list.sort / sorted are not modelled; their contract is: the result is a permutation of the
   input, sorted with respect to the key order, and elements whose keys are equivalent keep their relative
   order (stability).  This file proves that such a list is UNIQUE ([stable_sort_unique]) and that
   insertion sort [isort] meets the contract; hence every implementation that meets the contract
   computes [isort].  Stability is stated the usual way: for every element p, the sub-list of the
   elements equivalent to p is the same list (same members, same order) before and after.

   The middlewares sort by a key: [sort_by], with the contract said on keys.  A frequent key is the index of
   something in an order list, with the length of the list for what is not listed: [gpos].

   Also here: Python's ordering of str (code points, [str_leb] of Base/Chars.v) is a total preorder, and
   so is the lexicographic order on (int, str) tuples used as sort keys by the block sorter. *)
From Coq Require Import List Bool Arith NArith Lia Permutation Sorted.
From BP Require Import Base.Chars.
Import ListNotations.

Section Sort.
  Variable A : Type.
  Variable le : A -> A -> bool.

  Fixpoint insert (x : A) (l : list A) : list A :=
    match l with
    | [] => [x]
    | y :: r => if le x y then x :: y :: r else y :: insert x r
    end.

  Fixpoint isort (l : list A) : list A :=
    match l with
    | [] => []
    | x :: r => insert x (isort r)
    end.

  (* p and x are equivalent for the order *)
  Definition eqv (p x : A) : bool := le p x && le x p.
  Definition leP (x y : A) : Prop := le x y = true.

  (* the contract of a stable sort: [out] is a stable sorted permutation of [l] *)
  Definition stable_sorted_perm (l out : list A) : Prop :=
    Permutation out l /\ StronglySorted leP out /\ forall p, filter (eqv p) out = filter (eqv p) l.

  Lemma insert_perm x l : Permutation (insert x l) (x :: l).
  Proof.
    induction l as [|y r IH]; simpl; [apply Permutation_refl|].
    destruct (le x y); [apply Permutation_refl|].
    eapply Permutation_trans; [apply perm_skip; exact IH | apply perm_swap].
  Qed.

  Lemma isort_perm l : Permutation (isort l) l.
  Proof.
    induction l as [|x r IH]; simpl; [constructor|].
    eapply Permutation_trans; [apply insert_perm | apply perm_skip; exact IH].
  Qed.

  Lemma isort_length l : length (isort l) = length l.
  Proof. apply Permutation_length, isort_perm. Qed.

  Lemma isort_In x l : In x (isort l) <-> In x l.
  Proof. split; apply Permutation_in; [|apply Permutation_sym]; apply isort_perm. Qed.

  (* stability for any class [c] of mutually comparable-as-equal elements (e.g. "sort key equals k") *)
  Lemma insert_filter_class (c : A -> bool) x l :
    (forall y z, c y = true -> c z = true -> le y z = true) ->
    filter c (insert x l) = filter c (x :: l).
  Proof.
    intros Hc. induction l as [|y r IH]; [reflexivity|].
    cbn [insert]. destruct (le x y) eqn:E; [reflexivity|].
    cbn [filter] in *. rewrite IH.
    destruct (c x) eqn:Ex; [|reflexivity].
    destruct (c y) eqn:Ey; [|reflexivity].
    rewrite (Hc x y Ex Ey) in E. discriminate.
  Qed.

  Lemma isort_stable_class (c : A -> bool) l :
    (forall y z, c y = true -> c z = true -> le y z = true) -> filter c (isort l) = filter c l.
  Proof.
    intros Hc. induction l as [|x r IH]; [reflexivity|].
    cbn [isort]. rewrite insert_filter_class by exact Hc. cbn [filter]. rewrite IH. reflexivity.
  Qed.

  Hypothesis le_total : forall x y, le x y = true \/ le y x = true.
  Hypothesis le_trans : forall x y z, le x y = true -> le y z = true -> le x z = true.

  Lemma order_refl x : le x x = true.
  Proof. destruct (le_total x x); assumption. Qed.

  Lemma eqv_refl x : eqv x x = true.
  Proof. unfold eqv. rewrite order_refl. reflexivity. Qed.

  Lemma insert_sorted x l : StronglySorted leP l -> StronglySorted leP (insert x l).
  Proof.
    induction l as [|y r IH]; intros Hs; simpl.
    - constructor; constructor.
    - destruct (le x y) eqn:E.
      + constructor; [exact Hs|].
        constructor; [exact E|].
        inversion Hs as [|? ? Hr Hall]; subst.
        eapply Forall_impl; [|exact Hall]. intros z Hz. unfold leP in *. eapply le_trans; eauto.
      + inversion Hs as [|? ? Hr Hall]; subst.
        constructor; [apply IH; exact Hr|].
        assert (Hyx : le y x = true) by (destruct (le_total x y); congruence).
        eapply Permutation_Forall; [apply Permutation_sym, insert_perm|].
        constructor; assumption.
  Qed.

  Lemma isort_sorted l : StronglySorted leP (isort l).
  Proof. induction l; simpl; [constructor | apply insert_sorted; assumption]. Qed.

  Lemma isort_locally_sorted l : Sorted leP (isort l).
  Proof. apply StronglySorted_Sorted, isort_sorted. Qed.

  Lemma isort_stable p l : filter (eqv p) (isort l) = filter (eqv p) l.
  Proof.
    apply isort_stable_class. unfold eqv. intros y z Hy Hz.
    apply andb_true_iff in Hy as [_ Hyp]. apply andb_true_iff in Hz as [Hpz _]. exact (le_trans _ _ _ Hyp Hpz).
  Qed.

  Theorem isort_meets_contract l : stable_sorted_perm l (isort l).
  Proof. split; [apply isort_perm | split; [apply isort_sorted | intros p; apply isort_stable]]. Qed.

  Lemma sorted_head_le y r x : StronglySorted leP (y :: r) -> In x (y :: r) -> le y x = true.
  Proof.
    intros Hs [<-|Hin]; [apply order_refl|]. inversion Hs as [|? ? _ Ha]; subst.
    exact (proj1 (Forall_forall _ _) Ha x Hin).
  Qed.

  Lemma same_classes_In l l' x : (forall p, filter (eqv p) l = filter (eqv p) l') -> In x l -> In x l'.
  Proof.
    intros Hf Hin. assert (H : In x (filter (eqv x) l')).
    { rewrite <- Hf. apply filter_In. split; [exact Hin | apply eqv_refl]. }
    apply filter_In in H. apply H.
  Qed.

  Lemma sorted_classes_unique l1 : forall l2,
    StronglySorted leP l1 -> StronglySorted leP l2 ->
    (forall p, filter (eqv p) l1 = filter (eqv p) l2) -> l1 = l2.
  Proof.
    induction l1 as [|x r1 IH]; intros [|y r2] H1 H2 Hf; [reflexivity | | |].
    - destruct (same_classes_In _ _ y (fun p => eq_sym (Hf p)) (or_introl eq_refl)).
    - destruct (same_classes_In _ _ x Hf (or_introl eq_refl)).
    - (* each head occurs in the other list, so it is above the other head *)
      assert (Exy : eqv x y = true).
      { unfold eqv.
        rewrite (sorted_head_le _ _ _ H1 (same_classes_In _ _ y (fun p => eq_sym (Hf p)) (or_introl eq_refl))),
                (sorted_head_le _ _ _ H2 (same_classes_In _ _ x Hf (or_introl eq_refl))). reflexivity. }
      assert (x = y) by (specialize (Hf x); cbn [filter] in Hf; rewrite eqv_refl, Exy in Hf; congruence).
      subst y. inversion H1; inversion H2; subst. f_equal. apply IH; try assumption.
      intros p. specialize (Hf p). cbn [filter] in Hf. destruct (eqv p x); congruence.
  Qed.

  (* UNIQUENESS; the permutation premise of the contract is not needed *)
  Theorem stable_sort_unique' l out :
    StronglySorted leP out -> (forall p, filter (eqv p) out = filter (eqv p) l) -> out = isort l.
  Proof.
    intros Hs Hf. apply sorted_classes_unique; [exact Hs | apply isort_sorted|].
    intros p. rewrite Hf, isort_stable. reflexivity.
  Qed.

  Theorem stable_sort_unique l out : stable_sorted_perm l out -> out = isort l.
  Proof. intros (_ & Hs & Hf). exact (stable_sort_unique' l out Hs Hf). Qed.

  Lemma isort_sorted_id l : StronglySorted leP l -> isort l = l.
  Proof. intros Hs. symmetry. apply stable_sort_unique'; [exact Hs | reflexivity]. Qed.

  Lemma isort_idem l : isort (isort l) = isort l.
  Proof. apply isort_sorted_id, isort_sorted. Qed.
End Sort.

Arguments insert {A}.
Arguments isort {A}.
Arguments eqv {A}.
Arguments leP {A}.
Arguments stable_sorted_perm {A}.

Lemma SS_impl {A} (R R' : A -> A -> Prop) l :
  (forall x y, R x y -> R' x y) -> StronglySorted R l -> StronglySorted R' l.
Proof.
  intros H Hs. induction Hs as [|x l Hs IH Hall]; constructor; [exact IH|].
  eapply Forall_impl; [|exact Hall]. intros y; apply H.
Qed.

Lemma insert_ext_In {A} (le le' : A -> A -> bool) x l :
  (forall y, In y l -> le x y = le' x y) -> insert le x l = insert le' x l.
Proof.
  induction l as [|y r IH]; intros H; [reflexivity|]. cbn [insert].
  rewrite <- (H y (or_introl eq_refl)), IH by (intros z Hz; apply H; right; exact Hz). reflexivity.
Qed.

Lemma isort_ext_In {A} (le le' : A -> A -> bool) l :
  (forall x y, In x l -> In y l -> le x y = le' x y) -> isort le l = isort le' l.
Proof.
  induction l as [|x l IH]; intros H; [reflexivity|]. cbn [isort].
  rewrite <- IH by (intros; apply H; right; assumption).
  apply insert_ext_In. intros y Hy. apply H; [left; reflexivity | right; apply (isort_In _ le), Hy].
Qed.

Lemma isort_map {A B} (f : A -> B) (le : B -> B -> bool) l :
  isort le (map f l) = map f (isort (fun x y => le (f x) (f y)) l).
Proof.
  induction l as [|x l IH]; [reflexivity|]. cbn [map isort]. rewrite IH.
  generalize (isort (fun x y => le (f x) (f y)) l) as s. induction s as [|y s IHs]; [reflexivity|].
  cbn [map insert]. destruct (le (f x) (f y)); [reflexivity|]. cbn [map]. rewrite IHs. reflexivity.
Qed.

(* when a class [m] of elements lies below all others, its members come first, in their original order *)
Section Partition.
  Variable A : Type.
  Variable le : A -> A -> bool.
  Variable m : A -> bool.
  Hypothesis m_min : forall x y, m x = true -> le x y = true.
  Hypothesis m_strict : forall x y, m x = true -> m y = false -> le y x = false.

  Lemma insert_front x l : m x = true -> insert le x l = x :: l.
  Proof. intros Hx. destruct l as [|y r]; [reflexivity|]. cbn [insert]. rewrite (m_min x y Hx). reflexivity. Qed.

  Lemma insert_skip x l1 l2 : (forall y, In y l1 -> le x y = false) -> insert le x (l1 ++ l2) = l1 ++ insert le x l2.
  Proof.
    induction l1 as [|y r IH]; intros H; [reflexivity|]. cbn [app insert].
    rewrite (H y (or_introl eq_refl)). f_equal. apply IH. intros z Hz; apply H; right; exact Hz.
  Qed.

  Lemma isort_partition l : isort le l = filter m l ++ isort le (filter (fun x => negb (m x)) l).
  Proof.
    induction l as [|x l IH]; [reflexivity|]. cbn [isort filter]. rewrite IH.
    destruct (m x) eqn:Ex; cbn [negb].
    - rewrite insert_front by exact Ex. reflexivity.
    - cbn [isort]. apply insert_skip. intros y Hy. apply filter_In in Hy as [_ Hy]. apply m_strict; assumption.
  Qed.
End Partition.

Section ByKey.
  Variables (A K : Type) (key : A -> K) (leb : K -> K -> bool).
  Hypothesis leb_total : forall x y, leb x y = true \/ leb y x = true.
  Hypothesis leb_trans : forall x y z, leb x y = true -> leb y z = true -> leb x z = true.

  Definition le_key (x y : A) : bool := leb (key x) (key y).
  Definition sort_by (l : list A) : list A := isort le_key l.

  Lemma le_key_total x y : le_key x y = true \/ le_key y x = true.
  Proof. apply leb_total. Qed.
  Lemma le_key_trans x y z : le_key x y = true -> le_key y z = true -> le_key x z = true.
  Proof. apply leb_trans. Qed.

  (* the elements whose key is neither strictly below nor strictly above k; [eqv le_key p] is [tie (key p)] *)
  Definition tie (k : K) (x : A) : bool := leb k (key x) && leb (key x) k.

  Lemma tie_le k x y : tie k x = true -> tie k y = true -> le_key x y = true.
  Proof.
    unfold tie. intros Hx Hy. apply andb_true_iff in Hx as [_ Hx]. apply andb_true_iff in Hy as [Hy _].
    exact (leb_trans _ _ _ Hx Hy).
  Qed.

  Theorem sort_by_contract l :
    Permutation (sort_by l) l /\ StronglySorted (leP le_key) (sort_by l)
    /\ forall k, filter (tie k) (sort_by l) = filter (tie k) l.
  Proof.
    split; [apply isort_perm|]. split; [exact (isort_sorted _ _ le_key_total le_key_trans l)|].
    intros k. apply isort_stable_class, tie_le.
  Qed.

  (* only the classes of keys that occur matter *)
  Theorem sort_by_unique l out :
    StronglySorted (leP le_key) out -> (forall p, filter (tie (key p)) out = filter (tie (key p)) l) ->
    out = sort_by l.
  Proof. exact (stable_sort_unique' _ _ le_key_total le_key_trans l out). Qed.
End ByKey.
Arguments le_key {A K}.
Arguments sort_by {A K}.
Arguments tie {A K}.

(* l.index(k), with len(l) for a k that is not in l (the except ValueError branch of the sort keys).  The model and the
   specifications write this function out per key type: [index_of] (Base/Chars.v) and [index_N] (Model/SortBlocks.v) are
   [gindex], [position] (Spec/C17.v) and [rank_in] (Spec/C16.v) are [gpos]; the lemmas that say so are next to their
   users in Proofs/SortFieldsProofs.v and Proofs/SortBlocksProofs.v *)
Section Position.
  Variables (K : Type) (eqb : K -> K -> bool).

  Fixpoint gpos (k : K) (l : list K) : nat :=
    match l with
    | [] => O
    | x :: r => if eqb k x then O else S (gpos k r)
    end.

  Fixpoint gindex (k : K) (l : list K) : option nat :=
    match l with
    | [] => None
    | x :: r => if eqb k x then Some O else match gindex k r with Some i => Some (S i) | None => None end
    end.

  Lemma gindex_pos k l : match gindex k l with Some i => i | None => length l end = gpos k l.
  Proof.
    induction l as [|x r IH]; [reflexivity|]. cbn [gindex gpos length].
    destruct (eqb k x); [reflexivity|]. rewrite <- IH. destruct (gindex k r); reflexivity.
  Qed.

  Hypothesis eqb_eq : forall x y, eqb x y = true <-> x = y.

  Theorem gpos_meaning k l :
    (In k l -> nth_error l (gpos k l) = Some k /\ forall j, j < gpos k l -> nth_error l j <> Some k)
    /\ (~ In k l <-> gpos k l = length l)
    /\ gpos k l <= length l.
  Proof.
    induction l as [|x r (IH1 & IH2 & IH3)]; cbn [gpos length In]; [repeat split; (tauto || lia)|].
    destruct (eqb k x) eqn:E.
    - apply eqb_eq in E. subst x. repeat split; try discriminate; try lia.
      intros H. exfalso. apply H. left. reflexivity.
    - assert (N : k <> x) by (intros H; apply eqb_eq in H; congruence). split; [|split; [|lia]].
      + intros [Hx|Hin]; [congruence|]. destruct (IH1 Hin) as [H1 H2]. split; [exact H1|].
        intros [|j] Hj; cbn [nth_error]; [congruence | apply H2; lia].
      + split.
        * intros H. f_equal. apply IH2. intros Hin; apply H; right; exact Hin.
        * intros H [Hx|Hin]; [congruence|]. injection H as H. apply IH2 in H. contradiction.
  Qed.
End Position.

Lemma nat_leb_total x y : Nat.leb x y = true \/ Nat.leb y x = true.
Proof. destruct (Nat.leb_spec x y); [left; reflexivity | right; apply Nat.leb_le; lia]. Qed.
Lemma nat_leb_trans x y z : Nat.leb x y = true -> Nat.leb y z = true -> Nat.leb x z = true.
Proof. intros H1 H2. apply Nat.leb_le in H1, H2. apply Nat.leb_le. lia. Qed.
Lemma nat_tie x y : Nat.leb x y && Nat.leb y x = Nat.eqb x y.
Proof.
  destruct (Nat.eqb_spec x y) as [->|E]; [rewrite Nat.leb_refl; reflexivity|].
  destruct (Nat.leb_spec x y), (Nat.leb_spec y x); try reflexivity; lia.
Qed.

(* Python str: lexicographic by code point.  [str_ltb] is a strict weak order. *)
Lemma str_ltb_irrefl a : str_ltb a a = false.
Proof.
  induction a as [|x a IH]; [reflexivity|]. cbn [str_ltb].
  rewrite N.ltb_irrefl. exact IH.
Qed.

Lemma str_ltb_asym a : forall b, str_ltb a b = true -> str_ltb b a = false.
Proof.
  induction a as [|x a IH]; intros [|y b] H; try reflexivity; try discriminate.
  cbn [str_ltb] in *.
  destruct (N.ltb_spec (code x) (code y)) as [L1|L1]; destruct (N.ltb_spec (code y) (code x)) as [L2|L2];
    try reflexivity; try discriminate; try lia.
  apply IH; exact H.
Qed.

Lemma str_ltb_negtrans a : forall b c, str_ltb c a = true -> str_ltb b a = true \/ str_ltb c b = true.
Proof.
  induction a as [|x a IH]; intros b c H.
  - destruct c; discriminate.
  - destruct c as [|z c]; destruct b as [|y b]; cbn [str_ltb] in *; auto.
    destruct (N.ltb_spec (code y) (code x)) as [L1|L1]; [left; reflexivity|].
    destruct (N.ltb_spec (code z) (code y)) as [L2|L2]; [right; reflexivity|].
    (* now x <= y <= z, and H leaves only x = z *)
    destruct (N.ltb_spec (code z) (code x)) as [L3|L3]; [lia|].
    destruct (N.ltb_spec (code x) (code z)) as [L4|L4]; [discriminate|].
    destruct (N.ltb_spec (code x) (code y)) as [L5|L5]; [lia|].
    destruct (N.ltb_spec (code y) (code z)) as [L6|L6]; [lia|].
    apply IH. exact H.
Qed.

Lemma str_leb_total a b : str_leb a b = true \/ str_leb b a = true.
Proof.
  unfold str_leb. destruct (str_ltb b a) eqn:E; [right | left; reflexivity].
  rewrite (str_ltb_asym _ _ E). reflexivity.
Qed.

Lemma str_leb_trans a b c : str_leb a b = true -> str_leb b c = true -> str_leb a c = true.
Proof.
  unfold str_leb. intros H1 H2. apply negb_true_iff in H1, H2.
  destruct (str_ltb c a) eqn:E; [|reflexivity].
  destruct (str_ltb_negtrans a b c E); congruence.
Qed.

Lemma str_leb_refl a : str_leb a a = true.
Proof. unfold str_leb. rewrite str_ltb_irrefl. reflexivity. Qed.

(* Python tuple comparison of (int, str) keys: first components decide unless equal *)
Definition lex_ltb (a b : nat * str) : bool :=
  Nat.ltb (fst a) (fst b) || (Nat.eqb (fst a) (fst b) && str_ltb (snd a) (snd b)).
Definition lex_leb (a b : nat * str) : bool := negb (lex_ltb b a).

Lemma lex_leb_total a b : lex_leb a b = true \/ lex_leb b a = true.
Proof.
  destruct a as [i s], b as [j t]. unfold lex_leb, lex_ltb; cbn [fst snd].
  destruct (lt_eq_lt_dec i j) as [[L|L]|L].
  - left. replace (j <? i)%nat with false by (symmetry; apply Nat.ltb_ge; lia).
    replace (j =? i)%nat with false by (symmetry; apply Nat.eqb_neq; lia). reflexivity.
  - subst j. rewrite Nat.ltb_irrefl, Nat.eqb_refl. cbn [orb andb].
    destruct (str_ltb t s) eqn:E; [right | left; reflexivity].
    rewrite (str_ltb_asym _ _ E). reflexivity.
  - right. replace (i <? j)%nat with false by (symmetry; apply Nat.ltb_ge; lia).
    replace (i =? j)%nat with false by (symmetry; apply Nat.eqb_neq; lia). reflexivity.
Qed.

Lemma lex_leb_trans a b c : lex_leb a b = true -> lex_leb b c = true -> lex_leb a c = true.
Proof.
  destruct a as [i s], b as [j t], c as [k u]. unfold lex_leb, lex_ltb; cbn [fst snd].
  intros A B. apply negb_true_iff in A, B. apply orb_false_iff in A as [A1 A2], B as [B1 B2].
  apply Nat.ltb_ge in A1, B1.
  destruct (Nat.ltb_spec k i) as [L|L]; [lia|].
  destruct (Nat.eqb_spec k i) as [E|E]; [|reflexivity]. subst k.
  assert (j = i) by lia. subst j. rewrite Nat.eqb_refl in A2, B2. cbn [andb] in *.
  destruct (str_ltb u s) eqn:F; [|reflexivity].
  destruct (str_ltb_negtrans s t u F); congruence.
Qed.

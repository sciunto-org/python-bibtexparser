(* Characters and strings.

   A model character is a natural number  code*128 + flags  where the 7 flag bits are the
   answers of the running CPython for that code point (the harness computes them):
     bit 0 str.isspace   bit 1 str.isalpha   bit 2 str.isupper   bit 3 str.isdigit
     bit 4 regex \w      bit 5 str.isdecimal bit 6 str.islower
   The model never recomputes Unicode facts; it only reads the flags.  Comparisons with literal
   ASCII characters compare the whole number with the literal's canonical encoding [asc n]
   (the harness checks on every run that CPython's encoding of all 128 ASCII characters is [asc]). *)
From Coq Require Import List NArith ZArith Bool Lia.
Import ListNotations.
Local Open Scope N_scope.

Definition ch := N.
Definition str := list ch.

Definition code (c : ch) : N := N.shiftr c 7.
Definition isspace (c : ch) : bool := N.testbit c 0.
Definition isalpha (c : ch) : bool := N.testbit c 1.
Definition isupper (c : ch) : bool := N.testbit c 2.
Definition isdigit (c : ch) : bool := N.testbit c 3.
Definition isword  (c : ch) : bool := N.testbit c 4.
Definition isdecimal (c : ch) : bool := N.testbit c 5.
Definition islower (c : ch) : bool := N.testbit c 6.

(* the flags of the ASCII characters, as sums of the bit values above: white space 1; digits 8+16+32 = 56;
   upper-case letters 2+4+16 = 22; the underscore 16; lower-case letters 2+16+64 = 82 *)
Definition ascii_flags (n : N) : N :=
  if ((9 <=? n) && (n <=? 13)) || ((28 <=? n) && (n <=? 32)) then 1
  else if (48 <=? n) && (n <=? 57) then 56
  else if (65 <=? n) && (n <=? 90) then 22
  else if n =? 95 then 16
  else if (97 <=? n) && (n <=? 122) then 82
  else 0.
Definition asc (n : N) : ch := n * 128 + ascii_flags n.

(* literals (checked against [asc] below) *)
Definition c_nl : ch := 1281.      (* \n  10 *)
Definition c_cr : ch := 1665.      (* \r  13 *)
Definition c_tab : ch := 1153.     (* \t   9 *)
Definition c_sp : ch := 4097.      (* ' ' 32 *)
Definition c_quote : ch := 4352.   (* dquote 34 *)
Definition c_hash : ch := 4480.    (* #   35 *)
Definition c_comma : ch := 5632.   (* ,   44 *)
Definition c_eq : ch := 7808.      (* =   61 *)
Definition c_at : ch := 8192.      (* @   64 *)
Definition c_bs : ch := 11776.     (* \   92 *)
Definition c_lb : ch := 15744.     (* {  123 *)
Definition c_rb : ch := 16000.     (* }  125 *)
Definition c_tilde : ch := 16128.  (* ~  126 *)
Definition c_pct : ch := 4736.     (* %   37 *)

Lemma literals_ok :
  asc 10 = c_nl /\ asc 13 = c_cr /\ asc 9 = c_tab /\ asc 32 = c_sp /\ asc 34 = c_quote /\ asc 35 = c_hash /\
  asc 44 = c_comma /\ asc 61 = c_eq /\ asc 64 = c_at /\ asc 92 = c_bs /\ asc 123 = c_lb /\ asc 125 = c_rb /\
  asc 126 = c_tilde /\ asc 37 = c_pct.
Proof. repeat split; reflexivity. Qed.

Definition ceq (a b : ch) : bool := N.eqb a b.

(* list reversal in linear time (List.rev is quadratic when run) *)
Definition rv {A} (l : list A) : list A := rev_append l [].
Lemma rv_rev {A} (l : list A) : rv l = rev l.
Proof. unfold rv. symmetry. apply rev_alt. Qed.

Fixpoint str_eqb (a b : str) : bool :=
  match a, b with
  | [], [] => true
  | x :: a', y :: b' => N.eqb x y && str_eqb a' b'
  | _, _ => false
  end.

Lemma str_eqb_eq a b : str_eqb a b = true <-> a = b.
Proof.
  revert b; induction a as [|x a IH]; intros [|y b]; simpl; split; intros H; try congruence; try discriminate.
  - apply andb_true_iff in H as [H1 H2]. apply N.eqb_eq in H1. apply IH in H2. congruence.
  - inversion H; subst. rewrite N.eqb_refl. simpl. apply IH. reflexivity.
Qed.
Lemma str_eqb_refl a : str_eqb a a = true.
Proof. apply str_eqb_eq; reflexivity. Qed.
Lemma str_eqb_neq a b : str_eqb a b = false <-> a <> b.
Proof.
  split; intros H.
  - intros E. apply str_eqb_eq in E. congruence.
  - destruct (str_eqb a b) eqn:E; [apply str_eqb_eq in E; contradiction | reflexivity].
Qed.

(* Python's ordering of str: lexicographic by code point. *)
Fixpoint str_ltb (a b : str) : bool :=
  match a, b with
  | _, [] => false
  | [], _ :: _ => true
  | x :: a', y :: b' => if code x <? code y then true else if code y <? code x then false else str_ltb a' b'
  end.
Definition str_leb (a b : str) : bool := negb (str_ltb b a).

(* str.lower() restricted to ASCII (see DESIGN 2.1: the harness excludes inputs on which CPython's
   lower() differs from this instance from the comparison of lowered text).  The range test alone would
   also admit a number with the code of a letter and other flags; flags 22 are those of an upper-case
   ASCII letter.  Its lower-case letter has code + 32 and flags 82: 32 * 128 + (82 - 22) = 4156. *)
Definition lower_ch (c : ch) : ch :=
  if (asc 65 <=? c) && (c <=? asc 90) && (N.land c 127 =? 22) then c + 4156 else c.
Definition lower (s : str) : str := map lower_ch s.

Lemma lower_ch_decimal c : isdecimal c = true -> lower_ch c = c.
Proof.
  unfold isdecimal, lower_ch. intros H.
  destruct (N.land c 127 =? 22)%N eqn:E; [|rewrite andb_false_r; reflexivity].
  apply N.eqb_eq in E.
  (* flags 22 have bit 5 (isdecimal) clear *)
  assert (N.testbit (N.land c 127) 5 = N.testbit c 5) as T.
  { rewrite N.land_spec. replace (N.testbit 127 5) with true by reflexivity. apply andb_true_r. }
  rewrite E in T. rewrite H in T. discriminate T.
Qed.

Lemma lower_decimal s : forallb isdecimal s = true -> lower s = s.
Proof.
  induction s as [|c s IH]; simpl; intros H; [reflexivity|].
  apply andb_true_iff in H as [H1 H2]. rewrite lower_ch_decimal by exact H1. f_equal. apply IH, H2.
Qed.

(* str.strip(), lstrip, rstrip with no argument: characters with isspace *)
Fixpoint lstrip (s : str) : str :=
  match s with [] => [] | c :: r => if isspace c then lstrip r else s end.
Definition rstrip (s : str) : str := rv (lstrip (rv s)).
Definition strip (s : str) : str := rstrip (lstrip s).

(* strip with an explicit character set; used on single names only (Model/Names.v), hence plain [rev] *)
Fixpoint lstrip_set (p : ch -> bool) (s : str) : str :=
  match s with [] => [] | c :: r => if p c then lstrip_set p r else s end.
Definition strip_set (p : ch -> bool) (s : str) : str := rev (lstrip_set p (rev (lstrip_set p s))).

Fixpoint starts_with (p s : str) : bool :=
  match p, s with
  | [], _ => true
  | x :: p', y :: s' => N.eqb x y && starts_with p' s'
  | _ :: _, [] => false
  end.
Definition ends_with (p s : str) : bool := starts_with (rv p) (rv s).

Fixpoint mem_str (x : str) (l : list str) : bool :=
  match l with [] => false | y :: r => str_eqb x y || mem_str x r end.

Lemma mem_str_In x l : mem_str x l = true <-> In x l.
Proof.
  induction l as [|y l IH]; simpl; [split; [discriminate | tauto]|].
  rewrite orb_true_iff, IH, str_eqb_eq. split; intros [H|H]; auto.
Qed.

Fixpoint index_of (x : str) (l : list str) : option nat :=
  match l with
  | [] => None
  | y :: r => if str_eqb x y then Some O else match index_of x r with Some i => Some (S i) | None => None end
  end.

Lemma index_of_spec x l :
  match index_of x l with
  | Some i => nth i l [] = x /\ (i < length l)%nat /\ mem_str x l = true
  | None => mem_str x l = false
  end.
Proof.
  induction l as [|y l IH]; simpl; [reflexivity|].
  destruct (str_eqb x y) eqn:E.
  - apply str_eqb_eq in E. subst. repeat split; lia.
  - destruct (index_of x l) as [j|]; [|exact IH]. destruct IH as (A & B & C). repeat split; [exact A | lia | exact C].
Qed.
Lemma index_of_Some x l i : index_of x l = Some i -> nth i l [] = x /\ (i < length l)%nat /\ mem_str x l = true.
Proof. intros H. pose proof (index_of_spec x l) as S. rewrite H in S. exact S. Qed.
Lemma index_of_None x l : index_of x l = None -> mem_str x l = false.
Proof. intros H. pose proof (index_of_spec x l) as S. rewrite H in S. exact S. Qed.
Lemma mem_index x l : mem_str x l = true -> exists i, index_of x l = Some i.
Proof. intros H. destruct (index_of x l) eqn:E; [eauto|]. apply index_of_None in E. congruence. Qed.
Lemma not_mem_index x l : mem_str x l = false -> index_of x l = None.
Proof. intros H. destruct (index_of x l) eqn:E; [|reflexivity]. apply index_of_Some in E as (_ & _ & E). congruence. Qed.

Fixpoint join (sep : str) (l : list str) : str :=
  match l with
  | [] => []
  | [x] => x
  | x :: r => x ++ sep ++ join sep r
  end.

(* decimal rendering of a natural number, as ASCII characters *)
Definition digit_ch (d : N) : ch := asc (48 + d).
Fixpoint dec_fuel (fuel : nat) (n : N) (acc : str) : str :=
  match fuel with
  | O => acc
  | S f => let acc' := digit_ch (n mod 10) :: acc in
           if n / 10 =? 0 then acc' else dec_fuel f (n / 10) acc'
  end.
(* fuel: a number has at most as many decimal as binary digits *)
Definition dec_of_N (n : N) : str := dec_fuel (S (N.to_nat (N.log2 n))) n [].
Definition dec_of_Z (z : Z) : str :=
  match z with Zneg p => asc 45 :: dec_of_N (Npos p) | _ => dec_of_N (Z.to_N z) end.

(* int(s) for a string of ASCII decimal digits (the model's instance of the py_int oracle). *)
Definition ascii_digit_val (c : ch) : option N :=
  if (asc 48 <=? c) && (c <=? asc 57) && (N.land c 127 =? 56) then Some (code c - 48) else None.
Fixpoint py_int_acc (s : str) (acc : N) : option N :=
  match s with
  | [] => Some acc
  | c :: r => match ascii_digit_val c with Some d => py_int_acc r (acc * 10 + d) | None => None end
  end.
Definition py_int (s : str) : option N := match s with [] => None | _ => py_int_acc s 0 end.

Definition str_of_codes (l : list N) : str := map asc l.

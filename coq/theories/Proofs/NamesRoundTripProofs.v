(* C14, person level for strings:  spec_parse s = Some p, admissible p  ->  spec_parse (merge1 p) = Some p
   (and hence, by the tokeniser agreement of C13, the same for parse_name true).
   The words of a valid name are "good" (non-empty canonical atom lists without depth-0 separators, balanced); tokenising
   the rendering of a layout of good words gives the layout back; merge_last_name_first is that rendering of the
   re-laid-out parts, whose partition is the partition again (NamesInverseProofs). *)
From Coq Require Import List NArith ZArith Bool Lia PeanoNat.
From BP Require Import Base.Chars Model.Names Spec.C13 Spec.C14 Proofs.Common Proofs.WriterProofs
  Proofs.NamesTokProofs Proofs.NamesInverseProofs.
Import ListNotations.

Lemma text_cons a l : text (a :: l) = atom_text a ++ text l.
Proof. reflexivity. Qed.
Lemma text_app a b : text (a ++ b) = text a ++ text b.
Proof. unfold text. rewrite map_app, concat_app. reflexivity. Qed.

Lemma atoms_nbs c r : ceq c c_bs = false -> atoms (c :: r) = AChar c :: atoms r.
Proof. intros H. cbn [atoms]. rewrite H. reflexivity. Qed.
Lemma atoms_bs_ws e r : ws_parse e = true -> atoms (c_bs :: e :: r) = AChar c_bs :: AChar e :: atoms r.
Proof. intros H. cbn [atoms]. replace (ceq c_bs c_bs) with true by reflexivity. rewrite H. reflexivity. Qed.
Lemma atoms_bs_pair e r : ws_parse e = false -> atoms (c_bs :: e :: r) = APair e :: atoms r.
Proof. intros H. cbn [atoms]. replace (ceq c_bs c_bs) with true by reflexivity. rewrite H. reflexivity. Qed.

(* atom lists as [atoms] produces them: a lone backslash is last or followed by whitespace; a pair is not backslash+whitespace *)
Fixpoint wfa (l : list atom) : Prop :=
  match l with
  | [] => True
  | APair c :: r => ws_parse c = false /\ wfa r
  | AChar c :: r =>
      (ceq c c_bs = true -> match r with [] => True | AChar e :: _ => ws_parse e = true | APair _ :: _ => False end) /\ wfa r
  end.

Lemma wfa_atoms s : wfa (atoms s).
Proof.
  induction s as [s IH] using list_len_ind. destruct s as [|c r]; [exact I|]. cbn [atoms].
  destruct (ceq c c_bs) eqn:Ec.
  - destruct r as [|e r']; [cbn; auto|].
    assert (Hr : wfa (atoms r')) by (apply IH; simpl; lia).
    destruct (ws_parse e) eqn:Ee; cbn [wfa]; [|split; [exact Ee | exact Hr]].
    split; [intros _; exact Ee|]. split; [|exact Hr].
    intros Hb. destruct (ws_parse_facts e Ee) as (_ & _ & E3 & _). rewrite E3 in Hb. discriminate.
  - cbn [wfa]. split; [intros H; rewrite H in Ec; discriminate|]. apply IH. simpl; lia.
Qed.

Lemma wfa_app_l a b : wfa (a ++ b) -> wfa a.
Proof.
  induction a as [|x a IH]; intros H; [exact I|]. cbn [app wfa] in *. destruct x as [c|c].
  - destruct H as [H1 H2]. split; [exact H1 | apply IH; exact H2].
  - destruct H as [H1 H2]. split; [|apply IH; exact H2].
    intros Hc. specialize (H1 Hc). destruct a as [|y a]; [exact I|]. exact H1.
Qed.
Lemma wfa_app_r a b : wfa (a ++ b) -> wfa b.
Proof.
  induction a as [|x a IH]; intros H; [exact H|]. cbn [app wfa] in H. destruct x; apply IH; apply H.
Qed.

(* a lone backslash at the very end: followed by more text it would pair with the next character (the ", " of
   merge_last_name_first, the space of the co-author text), so layouts exclude it *)
Definition lone_bs_end (w : list atom) : bool := match last w (APair 0%N) with AChar c => ceq c c_bs | APair _ => false end.

Definition starts_ws (rest : str) : Prop := match rest with [] => True | e :: _ => ws_parse e = true end.

Lemma atoms_text_app w : wfa w -> forall rest, (lone_bs_end w = false \/ starts_ws rest) -> atoms (text w ++ rest) = w ++ atoms rest.
Proof.
  induction w as [|a w IH]; intros Hw rest Hr; [reflexivity|].
  rewrite text_cons, <- app_assoc. destruct a as [c|c]; cbn [atom_text app].
  - destruct Hw as [Hc Hw]. rewrite atoms_bs_pair by exact Hc. rewrite IH; [reflexivity | exact Hw |].
    destruct Hr as [Hp|Hs]; [left | right; exact Hs].
    unfold lone_bs_end in *. destruct w; [reflexivity | exact Hp].
  - destruct Hw as [Hbs Hw].
    assert (Hr' : lone_bs_end w = false \/ starts_ws rest).
    { destruct Hr as [Hp|Hs]; [|right; exact Hs]. destruct w as [|y w]; [left; reflexivity | left; exact Hp]. }
    destruct (ceq c c_bs) eqn:Ec.
    + apply N.eqb_eq in Ec. subst c. specialize (Hbs eq_refl).
      destruct w as [|y w].
      * (* the backslash is the last atom *)
        cbn [text concat map app]. destruct Hr as [Hp|Hs]; [cbv in Hp; discriminate|].
        destruct rest as [|e r]; [reflexivity|]. cbn in Hs. rewrite atoms_bs_ws by exact Hs.
        destruct (ws_parse_facts e Hs) as (_ & _ & E3 & _). rewrite atoms_nbs by exact E3. reflexivity.
      * destruct y as [e|e]; [contradiction|].
        specialize (IH Hw rest Hr').
        rewrite text_cons in *. cbn [atom_text app] in *. rewrite atoms_bs_ws by exact Hbs.
        destruct (ws_parse_facts e Hbs) as (_ & _ & E3 & _). rewrite atoms_nbs in IH by exact E3.
        inversion IH as [IH']. rewrite IH'. reflexivity.
    + rewrite atoms_nbs by exact Ec. rewrite IH; [reflexivity | exact Hw | exact Hr'].
Qed.

Lemma atoms_text w : wfa w -> atoms (text w) = w.
Proof.
  intros H. pose proof (atoms_text_app w H [] (or_intror I)) as E. rewrite !app_nil_r in E. exact E.
Qed.

Lemma text_atoms : forall n s, (length s <= n)%nat -> text (atoms s) = s.
Proof.
  intros _ s _. induction s as [s IH] using list_len_ind. destruct s as [|c r]; [reflexivity|]. cbn [atoms].
  destruct (ceq c c_bs) eqn:Ec.
  - apply N.eqb_eq in Ec. subst c. destruct r as [|e r']; [reflexivity|].
    destruct (ws_parse e); rewrite !text_cons; cbn [atom_text app]; rewrite IH by (simpl; lia); reflexivity.
  - rewrite text_cons. cbn [atom_text app]. rewrite IH by (simpl; lia). reflexivity.
Qed.

(* the depth after l when no separator of depth 0 and no unmatched closing brace is met *)
Fixpoint scan (sep : ch -> bool) (l : list atom) (d : N) : option N :=
  match l with
  | [] => Some d
  | a :: r => if is_sep sep d a then None
              else if negb (is_open a) && is_close a && (d =? 0)%N then None
              else scan sep r (dupd d a)
  end.

Lemma scan_app sep a : forall b d, scan sep (a ++ b) d = match scan sep a d with Some d' => scan sep b d' | None => None end.
Proof.
  induction a as [|x a IH]; intros b d; [reflexivity|]. cbn [app scan].
  destruct (is_sep sep d x); [reflexivity|]. destruct (negb (is_open x) && is_close x && (d =? 0)%N); [reflexivity|]. apply IH.
Qed.

Lemma scan_bal sep l : forall d d' X, scan sep l d = Some d' -> balanced_from (l ++ X) d = balanced_from X d'.
Proof.
  induction l as [|a l IH]; intros d d' X H; cbn [scan] in H.
  - inversion H; subst. reflexivity.
  - destruct (is_sep sep d a); [discriminate|].
    cbn [app]. rewrite bal_cons. destruct (negb (is_open a) && is_close a && (d =? 0)%N); [discriminate|].
    apply IH. exact H.
Qed.

Lemma cut_scan_app sep w : forall r d d' cur, scan sep w d = Some d' ->
  cut_go sep (w ++ r) d cur = cut_go sep r d' (rev w ++ cur).
Proof.
  induction w as [|a w IH]; intros r d d' cur H; cbn [scan] in H.
  - inversion H; subst. reflexivity.
  - destruct (is_sep sep d a) eqn:Es; [discriminate|].
    destruct (negb (is_open a) && is_close a && (d =? 0)%N); [discriminate|].
    cbn [app]. rewrite cut_go_step, Es. rewrite (IH _ _ _ _ H). cbn [rev]. rewrite <- app_assoc. reflexivity.
Qed.

Lemma scan_snoc sep p a : scan sep (p ++ [a]) 0 = match scan sep p 0 with
  | Some d => if is_sep sep d a then None else if negb (is_open a) && is_close a && (d =? 0)%N then None else Some (dupd d a)
  | None => None end.
Proof.
  rewrite scan_app. destruct (scan sep p 0%N) as [d0|]; [|reflexivity]. cbn [scan].
  destruct (is_sep sep d0 a); [reflexivity|]. destruct (negb (is_open a) && is_close a && (d0 =? 0)%N); reflexivity.
Qed.

Lemma is_sep_props sep d a : is_sep sep d a = true -> d = 0%N /\ is_open a = false /\ is_close a = false /\ dupd d a = d.
Proof. intros H. destruct (is_sep_true sep d a H) as (Hd & Ho & Hc). unfold dupd. rewrite Ho, Hc. auto. Qed.

(* pieces of a balanced list cut at depth-0 separators contain no separator, and are balanced *)
Lemma cut_scan sep l : forall d cur, balanced_from l d = true -> scan sep (rev cur) 0 = Some d ->
  Forall (fun p => scan sep p 0 = Some 0%N) (cut_go sep l d cur).
Proof.
  induction l as [|a l IH]; intros d cur Hb Hs.
  - cbn in *. apply N.eqb_eq in Hb. subst d. constructor; [exact Hs | constructor].
  - rewrite cut_go_step. rewrite bal_cons in Hb.
    destruct (is_sep sep d a) eqn:Es.
    + destruct (is_sep_props _ _ _ Es) as (Hd & Ho & Hc & Hdu). subst d.
      rewrite Ho, Hc in Hb. cbn in Hb. rewrite Hdu in Hb.
      constructor; [exact Hs|]. apply IH; [exact Hb | reflexivity].
    + destruct (negb (is_open a) && is_close a && (d =? 0)%N) eqn:Ec; [discriminate|].
      apply IH; [exact Hb|]. cbn [rev]. rewrite scan_snoc, Hs, Es, Ec. reflexivity.
Qed.

(* ... and no separator of another kind either, if the list has none *)
Lemma cut_scan2 (A B : ch -> bool) l : forall d cur, scan A l d = Some 0%N -> scan A (rev cur) 0 = Some d ->
  Forall (fun p => scan A p 0 = Some 0%N) (cut_go B l d cur).
Proof.
  induction l as [|a l IH]; intros d cur Hl Hs.
  - cbn in *. inversion Hl; subst. constructor; [exact Hs | constructor].
  - rewrite cut_go_step. cbn [scan] in Hl.
    destruct (is_sep A d a) eqn:EA; [discriminate|].
    destruct (negb (is_open a) && is_close a && (d =? 0)%N) eqn:Ec; [discriminate|].
    destruct (is_sep B d a) eqn:EB.
    + destruct (is_sep_props _ _ _ EB) as (Hd & Ho & Hc & Hdu). subst d. rewrite Hdu in Hl.
      constructor; [exact Hs|]. apply IH; [exact Hl | reflexivity].
    + apply IH; [exact Hl|]. cbn [rev]. rewrite scan_snoc, Hs, EA, Ec. reflexivity.
Qed.

Lemma cut_wfa sep l : forall d cur, wfa (rev cur ++ l) -> Forall wfa (cut_go sep l d cur).
Proof.
  induction l as [|a l IH]; intros d cur H.
  - cbn. rewrite app_nil_r in H. constructor; [exact H | constructor].
  - rewrite cut_go_step. destruct (is_sep sep d a).
    + constructor; [apply (wfa_app_l _ _ H)|]. apply IH. cbn [rev app].
      apply wfa_app_r in H. change (a :: l) with ([a] ++ l) in H. apply wfa_app_r in H. exact H.
    + apply IH. cbn [rev]. rewrite <- app_assoc. exact H.
Qed.

Record good (w : list atom) : Prop := mkgood {
  gd_ne : w <> [];
  gd_wfa : wfa w;
  gd_ws : scan ws_parse w 0 = Some 0%N;
  gd_comma : scan comma w 0 = Some 0%N
}.

Lemma Forall_filter {A} (P : A -> Prop) f l : Forall P l -> Forall P (filter f l).
Proof. intros H. apply Forall_forall. intros x Hin. apply filter_In in Hin. rewrite Forall_forall in H. apply H. tauto. Qed.

Lemma scan_balanced sep l : scan sep l 0 = Some 0%N -> balanced_from l 0 = true.
Proof. intros H. pose proof (scan_bal sep l 0%N 0%N [] H) as E. rewrite app_nil_r in E. exact E. Qed.

Lemma words_good sec : wfa sec -> scan comma sec 0 = Some 0%N -> Forall good (words sec).
Proof.
  intros Hw Hc. unfold words.
  pose proof (cut_wfa ws_parse sec 0%N [] Hw) as F1.
  pose proof (cut_scan ws_parse sec 0%N [] (scan_balanced _ _ Hc) eq_refl) as F2.
  pose proof (cut_scan2 comma ws_parse sec 0%N [] Hc eq_refl) as F3.
  fold (cut ws_parse sec) in F1, F2, F3.
  apply Forall_forall. intros w Hin. apply filter_In in Hin. destruct Hin as [Hin Hne].
  rewrite Forall_forall in F1, F2, F3. constructor; auto. destruct w; [discriminate | discriminate].
Qed.

Lemma sections_good l : wfa l -> balanced l = true ->
  Forall (fun sec => wfa sec /\ scan comma sec 0 = Some 0%N) (sections l).
Proof.
  intros Hw Hb. unfold sections.
  pose proof (cut_wfa (fun c => ceq c c_comma) l 0%N [] Hw) as F1.
  pose proof (cut_scan (fun c => ceq c c_comma) l 0%N [] Hb eq_refl) as F2.
  fold (cut (fun c => ceq c c_comma) l) in F1, F2.
  apply Forall_forall. intros sec Hin. rewrite Forall_forall in F1, F2. split; [apply F1 | apply F2]; exact Hin.
Qed.

Definition asecs (s : str) : list (list (list atom)) := map words (sections (atoms s)).

Lemma name_sections_asecs s : name_sections s = map (map tw) (asecs s).
Proof. unfold name_sections, asecs. rewrite map_map. reflexivity. Qed.

Lemma asecs_good s : balanced (atoms s) = true -> Forall (Forall good) (asecs s).
Proof.
  intros Hb. unfold asecs. apply Forall_map.
  eapply Forall_impl; [|apply (sections_good (atoms s) (wfa_atoms s) Hb)].
  intros sec [H1 H2]. apply words_good; assumption.
Qed.

Definition a_sp : atom := AChar c_sp.
Definition a_comma : atom := AChar c_comma.

Lemma sp_facts : ws_parse c_sp = true /\ ceq c_sp c_bs = false /\ is_sep ws_parse 0 a_sp = true /\ is_sep comma 0 a_sp = false
                 /\ is_open a_sp = false /\ is_close a_sp = false.
Proof. vm_compute. auto 10. Qed.
Lemma comma_facts : ws_parse c_comma = false /\ ceq c_comma c_bs = false /\ is_sep comma 0 a_comma = true
                    /\ is_open a_comma = false /\ is_close a_comma = false.
Proof. vm_compute. auto 10. Qed.

Fixpoint join_a (sep : list atom) (l : list (list atom)) : list atom :=
  match l with
  | [] => []
  | [x] => x
  | x :: r => x ++ sep ++ join_a sep r
  end.
Lemma join_a_cons2 sep x y r : join_a sep (x :: y :: r) = x ++ sep ++ join_a sep (y :: r).
Proof. reflexivity. Qed.
Definition sec_atoms (sec : list (list atom)) : list atom := join_a [a_sp] sec.
Definition sec_text (sec : list (list atom)) : str := join sp1 (map text sec).
Definition render_lay (Lay : list (list (list atom))) : str := join comma_sp (map sec_text Lay).
Definition blocks (Lay : list (list (list atom))) : list (list atom) :=
  match Lay with [] => [] | s1 :: rest => sec_atoms s1 :: map (fun sec => a_sp :: sec_atoms sec) rest end.

Definition lastw (sec : list (list atom)) : list atom := last sec [].

Lemma atoms_sec sec : sec <> [] -> Forall wfa sec -> forall rest, (lone_bs_end (lastw sec) = false \/ starts_ws rest) ->
  atoms (sec_text sec ++ rest) = sec_atoms sec ++ atoms rest.
Proof.
  induction sec as [|w sec IH]; intros Hne Hw rest Hr; [contradiction|].
  inversion Hw as [|? ? Hw1 Hw2]; subst.
  destruct sec as [|w2 sec].
  - unfold sec_text, sec_atoms. cbn [map join join_a]. apply atoms_text_app; assumption.
  - unfold sec_text, sec_atoms in *. cbn [map]. rewrite join_cons2, join_a_cons2, <- !app_assoc.
    destruct sp_facts as (S1 & S2 & _).
    rewrite atoms_text_app; [|exact Hw1 | right; exact S1].
    unfold sp1. cbn [app]. rewrite atoms_nbs by exact S2.
    cbn [map] in IH. rewrite IH; [reflexivity | discriminate | exact Hw2 | exact Hr].
Qed.

Definition sec_ok (sec : list (list atom)) : Prop := sec <> [] /\ Forall good sec /\ lone_bs_end (lastw sec) = false.

Lemma atoms_render Lay : Lay <> [] -> Forall sec_ok Lay -> atoms (render_lay Lay) = join_a [a_comma] (blocks Lay).
Proof.
  assert (Hgen : forall Lay, Lay <> [] -> Forall sec_ok Lay ->
                   atoms (render_lay Lay) = join_a [a_comma; a_sp] (map sec_atoms Lay)).
  { induction Lay0 as [|sec Lay0 IH]; intros Hne HF; [contradiction|].
    inversion HF as [|? ? (H1 & H2 & H3) HF']; subst.
    assert (Hwf : Forall wfa sec) by (eapply Forall_impl; [|exact H2]; intros w Hg; apply (gd_wfa _ Hg)).
    destruct Lay0 as [|sec2 Lay0].
    - unfold render_lay. cbn [map join join_a].
      pose proof (atoms_sec sec H1 Hwf [] (or_intror I)) as E. rewrite !app_nil_r in E. exact E.
    - unfold render_lay in *. cbn [map]. rewrite join_cons2, join_a_cons2.
      rewrite atoms_sec; [|exact H1 | exact Hwf | left; exact H3].
      destruct comma_facts as (C1 & C2 & _). destruct sp_facts as (S1 & S2 & _).
      unfold comma_sp in *. cbn [app]. rewrite atoms_nbs by exact C2. rewrite atoms_nbs by exact S2.
      cbn [map] in IH. rewrite IH; [reflexivity | discriminate | exact HF']. }
  intros Hne HF. rewrite (Hgen Lay Hne HF). clear.
  destruct Lay as [|s1 rest]; [reflexivity|]. cbn [blocks map].
  revert s1. induction rest as [|s2 rest IH]; intros s1; [reflexivity|].
  cbn [map]. rewrite !join_a_cons2. cbn [map] in IH. rewrite IH. f_equal. cbn [app]. f_equal.
  destruct (map (fun sec : list (list atom) => a_sp :: sec_atoms sec) rest); reflexivity.
Qed.

(* cutting a join of separator-free blocks gives the blocks back *)
Lemma cut_join sep x bs : bs <> [] -> Forall (fun b => scan sep b 0 = Some 0%N) bs -> is_sep sep 0 x = true ->
  cut_go sep (join_a [x] bs) 0 [] = bs.
Proof.
  intros Hne HF Hx. induction bs as [|b bs IH]; [contradiction|].
  inversion HF as [|? ? Hb HF']; subst.
  destruct bs as [|b2 bs].
  - cbn [join_a]. rewrite <- (app_nil_r b) at 1. rewrite (cut_scan_app sep b [] _ _ _ Hb). cbn. rewrite app_nil_r, rev_involutive. reflexivity.
  - rewrite join_a_cons2. rewrite (cut_scan_app sep b _ _ _ _ Hb). cbn [app]. rewrite cut_go_step, Hx.
    rewrite app_nil_r, rev_involutive. f_equal. apply IH; [discriminate | exact HF'].
Qed.

Lemma balanced_join_a sep x bs : Forall (fun b => scan sep b 0 = Some 0%N) bs -> is_open x = false -> is_close x = false ->
  balanced_from (join_a [x] bs) 0 = true.
Proof.
  intros HF Ho Hc. induction bs as [|b bs IH]; [reflexivity|].
  inversion HF as [|? ? Hb HF']; subst.
  destruct bs as [|b2 bs].
  - cbn [join_a]. apply (scan_balanced sep). exact Hb.
  - rewrite join_a_cons2. rewrite (scan_bal sep b _ _ _ Hb). cbn [app]. rewrite bal_cons, Ho, Hc. cbn [negb andb].
    unfold dupd. rewrite Ho, Hc. apply IH. exact HF'.
Qed.

Lemma scan_cons_plain sep a l : is_sep sep 0 a = false -> is_open a = false -> is_close a = false ->
  scan sep (a :: l) 0 = scan sep l 0.
Proof. intros H1 H2 H3. cbn [scan]. rewrite H1, H2, H3. cbn. unfold dupd. rewrite H2, H3. reflexivity. Qed.

Lemma scan_comma_sec sec : Forall good sec -> scan comma (sec_atoms sec) 0 = Some 0%N.
Proof.
  intros HF. unfold sec_atoms. induction sec as [|w sec IH]; [reflexivity|].
  inversion HF as [|? ? Hw HF']; subst.
  destruct sec as [|w2 sec]; [cbn [join_a]; apply (gd_comma _ Hw)|].
  rewrite join_a_cons2, scan_app, (gd_comma _ Hw). cbn [app].
  destruct sp_facts as (_ & _ & _ & S4 & S5 & S6). rewrite scan_cons_plain by assumption. apply IH. exact HF'.
Qed.

(* a leading space cuts off an empty piece, which is no word *)
Lemma words_sp l : words (a_sp :: l) = words l.
Proof.
  unfold words, cut. rewrite cut_go_step. destruct sp_facts as (_ & _ & S3 & _). unfold a_sp in *. rewrite S3. reflexivity.
Qed.

Lemma words_sec sec : sec <> [] -> Forall good sec -> words (sec_atoms sec) = sec.
Proof.
  intros Hne HF. unfold words, cut, sec_atoms. rewrite cut_join; [|exact Hne | | apply sp_facts].
  - clear Hne. induction HF as [|w sec Hw HF IH]; [reflexivity|]. cbn [filter].
    destruct w; [exfalso; apply (gd_ne _ Hw); reflexivity|]. rewrite IH. reflexivity.
  - eapply Forall_impl; [|exact HF]. intros w Hg. apply (gd_ws _ Hg).
Qed.

Lemma tokenise_render Lay : Lay <> [] -> Forall sec_ok Lay ->
  asecs (render_lay Lay) = Lay /\ balanced (atoms (render_lay Lay)) = true.
Proof.
  intros Hne HF. unfold asecs. rewrite (atoms_render Lay Hne HF).
  assert (Hb : Forall (fun b => scan comma b 0 = Some 0%N) (blocks Lay)).
  { destruct Lay as [|s1 rest]; [contradiction|]. cbn [blocks]. inversion HF as [|? ? (_ & G1 & _) HF']; subst.
    constructor; [apply scan_comma_sec; exact G1|]. apply Forall_map.
    eapply Forall_impl; [|exact HF']. intros sec (_ & G & _).
    destruct sp_facts as (_ & _ & _ & S4 & S5 & S6). unfold a_sp. rewrite scan_cons_plain by assumption.
    apply scan_comma_sec. exact G. }
  assert (Hbne : blocks Lay <> []) by (destruct Lay; [contradiction | discriminate]).
  destruct comma_facts as (_ & _ & C3 & C4 & C5).
  split.
  - unfold sections. change (fun c : ch => ceq c c_comma) with comma. unfold cut.
    rewrite (cut_join comma a_comma (blocks Lay) Hbne Hb C3).
    destruct Lay as [|s1 rest]; [contradiction|]. cbn [blocks map]. inversion HF as [|? ? (N1 & G1 & _) HF']; subst.
    rewrite (words_sec s1 N1 G1). f_equal.
    clear - HF'. induction HF' as [|sec rest (N & G & _) HF IH]; [reflexivity|].
    cbn [map]. rewrite words_sp, (words_sec sec N G), IH. reflexivity.
  - unfold balanced. apply (balanced_join_a comma a_comma); assumption.
Qed.

(* number of leading backslashes (of the reversed text) *)
Fixpoint cnt (r : str) : nat := match r with c :: r' => if ceq c_bs c then S (cnt r') else 0 | [] => 0 end.

Lemma lstrip_len p (r : str) : (length (lstrip_set p r) <= length r)%nat.
Proof. induction r as [|c r IH]; [simpl; lia|]. simpl. destruct (p c); simpl; lia. Qed.
Lemma cnt_spec r : (length r - length (lstrip_set (ceq c_bs) r))%nat = cnt r.
Proof.
  induction r as [|c r IH]; [reflexivity|]. cbn [lstrip_set cnt]. destruct (ceq c_bs c).
  - rewrite <- IH. pose proof (lstrip_len (ceq c_bs) r). simpl length. lia.
  - simpl. lia.
Qed.
Lemma ends_odd_cnt s : ends_odd_bs s = Nat.odd (cnt (rev s)).
Proof. unfold ends_odd_bs, rstrip_bs. rewrite rev_length, <- cnt_spec, rev_length. reflexivity. Qed.

Lemma rtext_of_rev w : rtext (rev w) = rev (text w).
Proof. rewrite <- (rev_involutive (rtext (rev w))), rtext_rev, rev_involutive. reflexivity. Qed.

Definition nb (u : list atom) : Prop := match u with AChar c :: _ => ceq c c_bs = false | _ => True end.

(* what stands before a pair, or before a backslash, in a canonical list is not a lone backslash *)
Lemma wfa_snoc_nb u x : wfa (rev u ++ [x]) -> match x with AChar e => ws_parse e = false | APair _ => True end -> nb u.
Proof.
  intros Hw Hx. destruct u as [|[c'|c'] u'']; cbn [nb]; auto.
  destruct (ceq c' c_bs) eqn:Ec'; [|reflexivity]. exfalso.
  cbn [rev] in Hw. rewrite <- app_assoc in Hw. apply wfa_app_r in Hw. destruct Hw as [H _]. specialize (H Ec').
  destruct x; cbn in H, Hx; [contradiction | congruence].
Qed.

Lemma cnt_even u : wfa (rev u) -> nb u -> Nat.even (cnt (rtext u)) = true.
Proof.
  induction u as [|a u IH]; intros Hw Hn; [reflexivity|].
  destruct a as [c|c]; cbn [rtext atom_text rev app cnt].
  - destruct (ceq c_bs c) eqn:Ec; [|reflexivity]. cbn [cnt]. replace (ceq c_bs c_bs) with true by reflexivity.
    cbn [Nat.even]. cbn [rev] in Hw. apply IH; [apply (wfa_app_l _ _ Hw) | exact (wfa_snoc_nb u _ Hw I)].
  - cbn [nb] in Hn. unfold ceq in *. rewrite N.eqb_sym, Hn. reflexivity.
Qed.

Lemma pend_odd w : wfa w -> lone_bs_end w = true -> ends_odd_bs (text w) = true.
Proof.
  intros Hw Hp. rewrite ends_odd_cnt, <- rtext_of_rev.
  unfold lone_bs_end in Hp.
  destruct (exists_last (l := w)) as (w' & a & E).
  { intros ->. cbn in Hp. discriminate. }
  subst w. rewrite last_last in Hp. destruct a as [c|c]; [discriminate|].
  apply N.eqb_eq in Hp. subst c.
  rewrite rev_app_distr. cbn [rev app rtext atom_text cnt]. replace (ceq c_bs c_bs) with true by reflexivity.
  rewrite Nat.odd_succ. rewrite <- (rev_involutive w') in Hw.
  apply cnt_even; [apply (wfa_app_l _ _ Hw) | exact (wfa_snoc_nb _ _ Hw eq_refl)].
Qed.

Definition cwords (q : cparts) : list cword := c_first q ++ c_von q ++ c_last q ++ c_jr q.

Lemma all_words_strs q : all_words (strs q) = map fst (cwords q).
Proof. unfold all_words, strs, cwords. cbn [n_first n_von n_last n_jr]. rewrite !map_app. reflexivity. Qed.

Lemma Forall_cwords (P : cword -> Prop) q :
  Forall P (cwords q) <-> Forall P (c_first q) /\ Forall P (c_von q) /\ Forall P (c_last q) /\ Forall P (c_jr q).
Proof. unfold cwords. rewrite !Forall_app. reflexivity. Qed.

Lemma Forall_firstn {A} (P : A -> Prop) n l : Forall P l -> Forall P (firstn n l).
Proof. intros H. rewrite <- (firstn_skipn n l) in H. apply Forall_app in H. apply H. Qed.
Lemma Forall_skipn {A} (P : A -> Prop) n l : Forall P l -> Forall P (skipn n l).
Proof. intros H. rewrite <- (firstn_skipn n l) in H. apply Forall_app in H. apply H. Qed.
Lemma Forall_last {A} (P : A -> Prop) (l : list (list A)) : Forall (Forall P) l -> Forall P (last l []).
Proof. induction l as [|x l IH]; intros H; [constructor|]. inversion H; subst. destruct l; [assumption|]. apply IH. assumption. Qed.

Lemma parts_Forall (P : cword -> Prop) X : Forall (Forall P) X -> Forall P (cwords (partition_cw X)).
Proof.
  intros H. apply Forall_cwords. destruct X as [|sec0 [|s1 rest]].
  - repeat split; constructor.
  - inversion H as [|? ? H0 _]; subst.
    destruct sec0 as [|a [|b [|c r]]]; cbn [partition_cw c_first c_von c_last c_jr].
    + repeat split; constructor.
    + repeat split; first [assumption | constructor].
    + inversion H0 as [|? ? Ha Hb]; subst. repeat split; first [assumption | constructor; [assumption | constructor] | constructor].
    + repeat split; try constructor; repeat first [apply Forall_firstn | apply Forall_skipn]; assumption.
  - inversion H as [|? ? H0 Hr]; subst.
    cbn [partition_cw c_first c_von c_last c_jr]. repeat split.
    + apply Forall_last. exact Hr.
    + apply Forall_firstn. exact H0.
    + apply Forall_skipn. exact H0.
    + destruct rest as [|s2 [|s3 r]]; try constructor. inversion Hr; assumption.
Qed.

Lemma relayout_Forall (P : cword -> Prop) q : Forall P (cwords q) -> Forall (Forall P) (relayout q).
Proof.
  intros H. apply Forall_cwords in H. destruct H as (H1 & H2 & H3 & H4).
  assert (HVL : Forall P (c_von q ++ c_last q)) by (apply Forall_app; split; assumption).
  unfold relayout. destruct (c_first q), (c_jr q); repeat (constructor; [assumption|]); constructor.
Qed.

(* relayout keeps the non-empty ones of "von Last", "Jr", "First": with a last name, and a first name if there is a
   Jr, the result has the shape of a successful parse *)

Lemma relayout_filter q : c_last q <> [] -> (c_jr q <> [] -> c_first q <> []) ->
  relayout q = filter not_nil [c_von q ++ c_last q; c_jr q; c_first q] /\ valid_layout (relayout q).
Proof.
  intros HL HJF. unfold relayout. cbn [filter].
  destruct (c_von q ++ c_last q) as [|x vl] eqn:E; [apply app_eq_nil in E; tauto|].
  destruct (c_first q) as [|f fs], (c_jr q) as [|j js]; cbn [valid_layout].
  - split; [reflexivity | exact I].
  - (* a Jr part without a first name *) exfalso. apply HJF; [discriminate | reflexivity].
  - split; [reflexivity | discriminate].
  - split; [reflexivity | discriminate].
Qed.

Lemma filter_not_nil {T} (L : list (list T)) : Forall (fun l => l <> []) (filter not_nil L).
Proof. apply Forall_forall. intros l H. apply filter_In in H. destruct l; [destruct H; discriminate | discriminate]. Qed.

Lemma join_opt_ne l : l <> [] -> join_opt l = Some (join sp1 l).
Proof. destruct l; [contradiction | reflexivity]. Qed.

Lemma join_ne (l : list str) : l <> [] -> Forall (fun w => w <> []) l -> join sp1 l <> [].
Proof.
  intros Hne HF. destruct l as [|x l]; [contradiction|]. inversion HF; subst.
  destruct l as [|y l]; cbn [join]; [assumption|]. destruct x; [contradiction | discriminate].
Qed.

Lemma esc_id s : ends_odd_bs s = false -> escape_last_slash s = s.
Proof.
  unfold ends_odd_bs, escape_last_slash. intros H. rewrite <- Nat.negb_odd, H. reflexivity.
Qed.

Lemma cnt_app_stop a c b : ceq c_bs c = false -> cnt (a ++ c :: b) = cnt a.
Proof.
  intros Hc. induction a as [|x a IH]; cbn [app cnt]; [rewrite Hc; reflexivity|].
  destruct (ceq c_bs x); [rewrite IH|]; reflexivity.
Qed.

Lemma ends_odd_join (l : list str) : l <> [] -> ends_odd_bs (join sp1 l) = ends_odd_bs (last l []).
Proof.
  intros Hne. induction l as [|x l IH]; [contradiction|].
  destruct l as [|y l]; [reflexivity|].
  rewrite join_cons2. unfold sp1 in *. rewrite (ends_odd_cnt (x ++ [c_sp] ++ join [c_sp] (y :: l))), !rev_app_distr. cbn [rev app].
  rewrite <- app_assoc. cbn [app]. rewrite cnt_app_stop by reflexivity.
  rewrite <- ends_odd_cnt. rewrite IH by discriminate. reflexivity.
Qed.

Definition tsec (sec : list cword) : str := join sp1 (map fst sec).

Definition okc (x : cword) : Prop := fst x <> [] /\ ends_odd_bs (fst x) = false.

Lemma last_okc (sec : list cword) : sec <> [] -> Forall okc sec -> ends_odd_bs (last (map fst sec) []) = false.
Proof.
  intros Hne HF. induction sec as [|x sec IH]; [contradiction|]. inversion HF as [|? ? Hx HF']; subst.
  destruct sec as [|y sec]; [apply Hx|]. apply IH; [discriminate | exact HF'].
Qed.

Lemma esc_tsec sec : sec <> [] -> Forall okc sec -> escape_last_slash (tsec sec) = tsec sec.
Proof.
  intros Hne HF. apply esc_id. unfold tsec. rewrite ends_odd_join by (destruct sec; [contradiction | discriminate]).
  apply last_okc; assumption.
Qed.

Lemma tsec_ne sec : sec <> [] -> Forall okc sec -> tsec sec <> [].
Proof.
  intros Hne HF. unfold tsec. apply join_ne; [destruct sec; [contradiction | discriminate]|].
  apply Forall_map. eapply Forall_impl; [|exact HF]. intros x [H _]. exact H.
Qed.

Lemma map_ne {A B} (f : A -> B) l : l <> [] -> map f l <> [].
Proof. destruct l; [contradiction | discriminate]. Qed.

Lemma truthy_some s : s <> [] -> truthy_opt (Some s) = true.
Proof. destruct s; [contradiction | reflexivity]. Qed.

Definition osec (sec : list cword) : option str := join_opt (map fst sec).

Lemma truthy_osec sec : Forall okc sec -> truthy_opt (osec sec) = not_nil sec.
Proof.
  intros H. destruct sec as [|x sec]; [reflexivity|].
  apply (truthy_some (tsec (x :: sec))), tsec_ne; [discriminate | exact H].
Qed.

(* the filter of merge_last_name_first drops exactly the empty parts *)
Lemma filter_truthy_secs secs : Forall (Forall okc) secs ->
  map opt_str (filter truthy_opt (map osec secs)) = map tsec (filter not_nil secs).
Proof.
  induction 1 as [|sec secs Hs _ IH]; [reflexivity|]. cbn [map filter]. rewrite (truthy_osec sec Hs).
  destruct (not_nil sec); [|exact IH]. cbn [map]. rewrite IH. destruct sec; reflexivity.
Qed.

Lemma esc_tsecs L : Forall (fun sec => sec <> []) L -> Forall (Forall okc) L ->
  map escape_last_slash (map tsec L) = map tsec L.
Proof.
  induction 1 as [|sec L Hn _ IH]; intros H; [reflexivity|]. inversion H as [|? ? Hs H']; subst.
  cbn [map]. rewrite (IH H'), (esc_tsec sec Hn Hs). reflexivity.
Qed.

Lemma tsec_von_last v l : l <> [] -> join sp1 (map tsec (filter not_nil [v; l])) = tsec (v ++ l).
Proof.
  intros Hl. destruct l as [|y l]; [contradiction|]. destruct v as [|x v]; [reflexivity|].
  unfold tsec. rewrite map_app. symmetry. apply join_app; discriminate.
Qed.

(* merge_last_name_first on the parts of a cased partition: "von Last" is joined first and stands as one section before
   Jr and First; empty sections are dropped twice, each kept one gets its trailing backslash escaped *)
Lemma merge_last_first_strs q : merge_last_first (strs q) =
  join comma_sp (map escape_last_slash (map opt_str (filter truthy_opt
    (Some (join sp1 (map opt_str (filter truthy_opt (map osec [c_von q; c_last q])))) :: map osec [c_jr q; c_first q])))).
Proof. rewrite map_map. reflexivity. Qed.

Lemma merge_render q : Forall okc (cwords q) -> c_last q <> [] -> (c_jr q <> [] -> c_first q <> []) ->
  merge_last_first (strs q) = join comma_sp (map tsec (relayout q)).
Proof.
  intros H HL HJF. destruct (relayout_filter q HL HJF) as [ER _].
  apply Forall_cwords in H. destruct H as (HF & HV & HLo & HJ).
  assert (HS : Forall (Forall okc) [c_von q ++ c_last q; c_jr q; c_first q])
    by (repeat constructor; try assumption; apply Forall_app; split; assumption).
  rewrite merge_last_first_strs, filter_truthy_secs, (tsec_von_last _ _ HL) by (repeat constructor; assumption).
  replace (Some (tsec (c_von q ++ c_last q))) with (osec (c_von q ++ c_last q))
    by (apply join_opt_ne, map_ne; intros E; apply app_eq_nil in E; tauto).
  change (osec ?vl :: map osec ?r) with (map osec (vl :: r)).
  rewrite (filter_truthy_secs _ HS), <- ER.
  rewrite esc_tsecs; [reflexivity | rewrite ER; apply filter_not_nil | rewrite ER; apply Forall_filter; exact HS].
Qed.

Definition goodc (x : cword) : Prop := exists w, x = tw w /\ good w /\ ends_odd_bs (fst x) = false.
Definition gat (x : cword) : list atom := atoms (fst x).

Lemma goodc_gat x : goodc x -> tw (gat x) = x /\ good (gat x) /\ lone_bs_end (gat x) = false /\ text (gat x) = fst x /\ okc x.
Proof.
  intros (w & -> & Hg & Ho). unfold gat, tw in *. cbn [fst] in *.
  rewrite (atoms_text w (gd_wfa _ Hg)).
  split; [reflexivity|]. split; [exact Hg|]. split.
  { destruct (lone_bs_end w) eqn:Ep; [|reflexivity]. rewrite (pend_odd w (gd_wfa _ Hg) Ep) in Ho. discriminate. }
  split; [reflexivity|]. split; [|exact Ho].
  cbn [fst]. apply text_ne. apply (gd_ne _ Hg).
Qed.

Lemma sections_ne l : sections l <> [].
Proof.
  unfold sections. rewrite (cut_fold (fun c => ceq c c_comma) l).
  destruct (fold_left (cstep (fun c : ch => ceq c c_comma)) l ([], 0%N, [])) as [[done d] cur].
  intros E. apply (f_equal (@length _)) in E. rewrite rev_length in E. simpl in E. lia.
Qed.

Lemma last_pend (l : list (list atom)) : l <> [] -> Forall (fun w => lone_bs_end w = false) l -> lone_bs_end (lastw l) = false.
Proof.
  unfold lastw. intros Hne HF. induction l as [|x l IH]; [contradiction|]. inversion HF; subst.
  destruct l as [|y l]; [assumption|]. apply IH; [discriminate | assumption].
Qed.

Lemma sec_ok_gat (sec : list cword) : sec <> [] -> Forall goodc sec -> sec_ok (map gat sec).
Proof.
  intros Hne HF. unfold sec_ok. split; [apply map_ne; exact Hne|]. split.
  - apply Forall_map. eapply Forall_impl; [|exact HF]. intros x Hx. apply (goodc_gat x Hx).
  - apply last_pend; [apply map_ne; exact Hne|]. apply Forall_map. eapply Forall_impl; [|exact HF].
    intros x Hx. apply (goodc_gat x Hx).
Qed.

Lemma map_tw_gat (sec : list cword) : Forall goodc sec -> map tw (map gat sec) = sec.
Proof.
  intros HF. induction HF as [|x sec Hx HF IH]; [reflexivity|]. cbn [map]. rewrite IH.
  rewrite (proj1 (goodc_gat x Hx)). reflexivity.
Qed.
Lemma sec_text_gat (sec : list cword) : Forall goodc sec -> sec_text (map gat sec) = tsec sec.
Proof.
  intros HF. unfold sec_text, tsec. f_equal. induction HF as [|x sec Hx HF IH]; [reflexivity|]. cbn [map]. rewrite IH.
  destruct (goodc_gat x Hx) as (_ & _ & _ & E & _). rewrite E. reflexivity.
Qed.

Lemma jr_first X : valid_layout X -> c_jr (partition_cw X) <> [] -> c_first (partition_cw X) <> [].
Proof.
  destruct X as [|a [|b [|c [|d r]]]]; cbn [valid_layout]; intros HV H; try contradiction.
  - exfalso. apply H. destruct a as [|a1 [|a2 [|a3 ar]]]; reflexivity.
  - cbn. exact HV.
Qed.

(* valid_layout as the parser tests it: at most three sections, no empty last section behind a comma *)
Lemma valid_layout_b (X : list (list cword)) : X <> [] ->
  (3 <? length X)%nat || ((1 <? length X)%nat && is_nil (last X [])) = false <-> valid_layout X.
Proof.
  destruct X as [|a [|b [|c [|d r]]]]; cbn [valid_layout]; intros Hne; [contradiction | split; auto | | |split; [discriminate | intros []]].
  - destruct b; split; try discriminate; auto. intros F; contradiction.
  - destruct c; split; try discriminate; auto. intros F; contradiction.
Qed.

(* a strict parse succeeds exactly on balanced text whose sections have the shape valid_layout, and yields their
   partition; if all sections are empty there is only one, and its partition is parts0 *)
Lemma spec_parse_Some s p : spec_parse s = Some p <->
  balanced (atoms s) = true /\ valid_layout (name_sections s) /\ p = strs (partition_cw (name_sections s)).
Proof.
  unfold spec_parse, invalid_name, unbalanced, too_many_commas, trailing_comma. cbv zeta.
  replace (length (sections (atoms s))) with (length (name_sections s)) by apply map_length.
  assert (Hne : name_sections s <> []) by (apply map_ne, sections_ne).
  set (X := name_sections s) in *. rewrite <- partition_cw_strs.
  destruct (balanced (atoms s)); cbn [negb orb]; [|split; [discriminate | intros [? _]; discriminate]].
  destruct (valid_layout_b X Hne) as [V1 V2].
  destruct (_ || _); [split; [discriminate | intros (_ & F & _); apply V2 in F; discriminate]|].
  specialize (V1 eq_refl).
  assert (E0 : forallb is_nil X = true -> parts0 = partition_spec X).
  { intros En. destruct X as [|a [|b [|c [|d r]]]]; cbn [valid_layout] in V1; try contradiction.
    - destruct a; [reflexivity | discriminate].
    - destruct a, b; try discriminate. contradiction.
    - destruct a, b, c; try discriminate. contradiction. }
  destruct (forallb is_nil X); [rewrite (E0 eq_refl)|]; (split; [intros [= <-]; auto | intros (_ & _ & ->); reflexivity]).
Qed.

Lemma sections_tw_good s : balanced (atoms s) = true ->
  Forall (Forall (fun x => exists w, x = tw w /\ good w)) (name_sections s).
Proof.
  intros Hb. rewrite name_sections_asecs. apply Forall_map. eapply Forall_impl; [|apply (asecs_good s Hb)].
  intros sec Hsec. apply Forall_map. eapply Forall_impl; [|exact Hsec]. intros w Hw. exists w. auto.
Qed.

(* CORE of the person-level law: the merged text of a valid, admissible name is the rendering of a layout Lay of good
   words (no word ends in a lone backslash) whose cased words are the re-laid-out partition of the name's sections;
   what holds of every word of p holds of every word of Lay *)
Lemma valid_name_layout s p (Q : str -> Prop) : spec_parse s = Some p -> admissible p -> Forall Q (all_words p) ->
  let q := partition_cw (name_sections s) in
  valid_layout (name_sections s) /\ p = strs q /\ valid_layout (relayout q) /\
  exists Lay, Lay <> [] /\ Forall sec_ok Lay /\ map (map tw) Lay = relayout q /\ merge1 p = render_lay Lay
              /\ Forall (Forall (fun w => Q (text w) /\ lone_bs_end w = false)) Lay.
Proof.
  intros Hs [HLne Hodd] HQ q. apply spec_parse_Some in Hs. destruct Hs as (Hbal & HV & Hp). fold q in Hp.
  assert (HqL : c_last q <> []) by (intros E; apply HLne; rewrite Hp; unfold strs; cbn [n_last]; rewrite E; reflexivity).
  pose proof (jr_first _ HV) as HJF. fold q in HJF.
  destruct (relayout_filter q HqL HJF) as [ER HVR].
  (* every word of the parts is a good word not ending in an odd run of backslashes, and satisfies Q *)
  assert (HW : Forall (fun x => goodc x /\ Q (fst x)) (cwords q)).
  { pose proof (parts_Forall _ _ (sections_tw_good s Hbal)) as G. fold q in G.
    unfold no_word_ends_odd_backslash in Hodd. rewrite forallb_forall in Hodd.
    rewrite Hp, all_words_strs, Forall_map in HQ. rewrite Hp, all_words_strs in Hodd.
    apply Forall_forall. intros x Hx. rewrite Forall_forall in G, HQ. destruct (G x Hx) as (w & E & Hg).
    split; [|exact (HQ x Hx)]. exists w. split; [exact E|]. split; [exact Hg|].
    apply negb_true_iff, Hodd, in_map, Hx. }
  pose proof (relayout_Forall _ q HW) as HR.
  assert (HRg : Forall (Forall goodc) (relayout q)).
  { eapply Forall_impl; [|exact HR]. intros sec Hsec. eapply Forall_impl; [|exact Hsec]. intros x Hx. apply Hx. }
  assert (HRn : Forall (fun sec : list cword => sec <> []) (relayout q)) by (rewrite ER; apply filter_not_nil).
  repeat (split; [assumption|]).
  exists (map (map gat) (relayout q)).
  split; [apply map_ne; intros E; rewrite E in HVR; exact HVR|].
  split.
  { apply Forall_map. eapply Forall_impl; [|exact (Forall_and HRn HRg)]. intros sec [Hn Hg]. apply sec_ok_gat; assumption. }
  split.
  { rewrite map_map. erewrite map_ext_Forall; [apply map_id|]. eapply Forall_impl; [|exact HRg]. exact map_tw_gat. }
  split.
  { assert (Hokc : Forall okc (cwords q)) by (eapply Forall_impl; [|exact HW]; intros x [Hx _]; apply (goodc_gat x Hx)).
    unfold merge1. rewrite Hp, (merge_render q Hokc HqL HJF).
    unfold render_lay. rewrite map_map. f_equal. apply map_ext_Forall. eapply Forall_impl; [|exact HRg].
    intros sec Hsec. symmetry. apply sec_text_gat. exact Hsec. }
  apply Forall_map. eapply Forall_impl; [|exact HR]. intros sec Hsec. apply Forall_map.
  eapply Forall_impl; [|exact Hsec]. intros x [Hg Hq]. destruct (goodc_gat x Hg) as (_ & _ & Hpe & E & _). rewrite E. split; assumption.
Qed.

Theorem person_inverse_spec s p : spec_parse s = Some p -> admissible p -> spec_parse (merge1 p) = Some p.
Proof.
  intros Hs Ha.
  destruct (valid_name_layout s p (fun _ => True) Hs Ha) as (HV & Hp & HVR & Lay & Hne & Hok & Htw & -> & _).
  { apply Forall_forall. intros; exact I. }
  destruct (tokenise_render Lay Hne Hok) as [Hasecs Hbal].
  apply spec_parse_Some. rewrite name_sections_asecs, Hasecs, Htw, (repartition _ HV).
  repeat split; assumption.
Qed.

Theorem person_inverse s p : split1 s = POk p -> admissible p -> split1 (merge1 p) = POk p.
Proof.
  unfold split1. intros H Ha. apply (proj1 (tok_partition (merge1 p) p)). apply (person_inverse_spec s p); [|exact Ha].
  apply (proj2 (tok_partition s p)). exact H.
Qed.

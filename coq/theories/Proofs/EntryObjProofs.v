(* Proofs for the object-level part of C19 (Model/EntryObj.v): the operations on Field objects refine the value-level
   model Model/Entry.v, the store of Field objects only grows, other entries and earlier results never change. *)
From Coq Require Import List NArith ZArith Bool Arith Lia.
From BP Require Import Base.Chars Model.Blocks Model.Entry Model.EntryObj Proofs.Common.
Import ListNotations.

Lemma sfresh_notin s : ~ In (sfresh s) (sdom s).
Proof. exact (list_max_fresh (sdom s)). Qed.

Lemma slookup_in s i f : slookup s i = Some f -> In i (sdom s).
Proof.
  induction s as [|[j g] r IH]; simpl; [discriminate|].
  destruct (Nat.eqb j i) eqn:E; [apply Nat.eqb_eq in E; auto | auto].
Qed.

Lemma store_extends_refl s : store_extends s s.
Proof. intros i H. auto. Qed.

Lemma store_extends_trans s1 s2 s3 : store_extends s1 s2 -> store_extends s2 s3 -> store_extends s1 s3.
Proof.
  intros H12 H23 i Hi. destruct (H12 i Hi) as [Hd Hl]. destruct (H23 i Hd) as [Hd' Hl']. split; [assumption | congruence].
Qed.

Lemma store_extends_alloc s f : store_extends s (fst (salloc s f)).
Proof.
  intros i Hi. unfold salloc. cbn [fst]. split; [right; assumption|]. cbn [slookup].
  destruct (Nat.eqb (sfresh s) i) eqn:E; [|reflexivity].
  apply Nat.eqb_eq in E. subst. exfalso. apply (sfresh_notin s). assumption.
Qed.

Lemma sget_alloc_new s f : sget (fst (salloc s f)) (snd (salloc s f)) = f.
Proof. unfold sget, salloc. cbn [fst snd slookup]. rewrite Nat.eqb_refl. reflexivity. Qed.

Lemma salloc_dom s f : In (snd (salloc s f)) (sdom (fst (salloc s f))).
Proof. simpl. left. reflexivity. Qed.

Lemma sget_extends s s' i : store_extends s s' -> In i (sdom s) -> sget s' i = sget s i.
Proof. intros H Hi. unfold sget. destruct (H i Hi) as [_ Hl]. rewrite Hl. reflexivity. Qed.

Lemma okeyof_extends s s' i : store_extends s s' -> In i (sdom s) -> okeyof s' i = okeyof s i.
Proof. intros H Hi. unfold okeyof. rewrite (sget_extends s s' i H Hi). reflexivity. Qed.

Lemma ent_ok_extends s s' e : store_extends s s' -> ent_ok s e -> ent_ok s' e.
Proof. intros H He i Hi. apply (H i). apply He. assumption. Qed.

Lemma set_nth_map {T U} (g : T -> U) n x l : map g (set_nth n x l) = set_nth n (g x) (map g l).
Proof.
  revert n. induction l as [|y r IH]; intros n; destruct n; simpl; try reflexivity.
  rewrite IH; reflexivity.
Qed.

Lemma set_nth_in {T} n (x : T) l y : In y (set_nth n x l) -> y = x \/ In y l.
Proof.
  revert n. induction l as [|z r IH]; intros n; destruct n; simpl; try tauto.
  - intros [H|H]; [left; congruence | tauto].
  - intros [H|H]; [tauto | apply IH in H; tauto].
Qed.

Lemma set_nth_other {T} a b (x : T) l : a <> b -> nth_error (set_nth a x l) b = nth_error l b.
Proof.
  revert a b. induction l as [|z r IH]; intros a b Hab; destruct a, b; simpl; try reflexivity; try congruence.
  apply IH. congruence.
Qed.

Lemma set_nth_length {T} a (x : T) l : List.length (set_nth a x l) = List.length l.
Proof. revert a. induction l as [|z r IH]; intros a; destruct a; simpl; auto. Qed.

Lemma set_nth_in_nth {T} a (x : T) l e y : nth_error l a = Some e -> In y (set_nth a x l) -> y = x \/ In y l.
Proof. intros _. apply set_nth_in. Qed.

Lemma abs_dict_set s d k i : abs_dict s (dict_set d k i) = dict_set (abs_dict s d) k (sget s i).
Proof.
  induction d as [|[k' j] r IH]; simpl; [reflexivity|].
  destruct (str_eqb k k'); simpl; [reflexivity | rewrite IH; reflexivity].
Qed.

Lemma dict_get_abs s d k : dict_get (abs_dict s d) k = option_map (sget s) (dict_get d k).
Proof.
  induction d as [|[k' j] r IH]; simpl; [reflexivity|].
  destruct (str_eqb k k'); simpl; [reflexivity | assumption].
Qed.

Lemma dict_has_abs s d k : dict_has (abs_dict s d) k = dict_has d k.
Proof. unfold dict_has. rewrite dict_get_abs. destruct (dict_get d k); reflexivity. Qed.

Lemma ofields_dict_abs s ids : fields_dict (abs_ids s ids) = abs_dict s (ofields_dict s ids).
Proof.
  unfold fields_dict, ofields_dict, abs_ids.
  change (@nil (str * field)) with (abs_dict s []). generalize (@nil (str * oid)).
  induction ids as [|i r IH]; intros d; simpl; [reflexivity|].
  rewrite <- IH. rewrite abs_dict_set. reflexivity.
Qed.

Lemma abs_ids_keys s ids : map fkey (abs_ids s ids) = map (okeyof s) ids.
Proof. unfold abs_ids. rewrite map_map. reflexivity. Qed.

Lemma ofields_dict_in s ids k i : In (k, i) (ofields_dict s ids) -> In i ids.
Proof.
  unfold ofields_dict.
  assert (G : forall d, In (k, i) (fold_left (fun d j => dict_set d (okeyof s j) j) ids d) -> In (k, i) d \/ In i ids).
  { induction ids as [|j r IH]; intros d; simpl; [auto|].
    intros H. apply IH in H. destruct H as [H|H]; [|auto].
    apply dict_set_in_val in H. destruct H as [H|H]; auto. }
  intros H. apply G in H. destruct H as [[]|H]. assumption.
Qed.

Lemma ofields_dict_get_in s ids k i : dict_get (ofields_dict s ids) k = Some i -> In i ids.
Proof. intros H. apply dict_get_in in H. apply ofields_dict_in in H. assumption. Qed.

Lemma ofields_dict_ext s s' ids : (forall i, In i ids -> okeyof s' i = okeyof s i) -> ofields_dict s' ids = ofields_dict s ids.
Proof.
  unfold ofields_dict. generalize (@nil (str * oid)).
  induction ids as [|i r IH]; intros d H; simpl; [reflexivity|].
  rewrite (H i (or_introl eq_refl)). apply IH. intros j Hj. apply H. right. assumption.
Qed.

Lemma abs_ids_ext s s' ids : (forall i, In i ids -> sget s' i = sget s i) -> abs_ids s' ids = abs_ids s ids.
Proof. intros H. unfold abs_ids. apply map_ext_in. assumption. Qed.

Lemma odflt_abs s d : abs_res s (odflt d) = dflt d.
Proof. destruct d; reflexivity. Qed.

Lemma oget_abs s ids k d : get (abs_ids s ids) k d = abs_res s (oget s ids k d).
Proof.
  unfold get, oget. rewrite ofields_dict_abs, dict_get_abs.
  destruct (dict_get (ofields_dict s ids) k); simpl; [reflexivity | rewrite odflt_abs; reflexivity].
Qed.

Lemma ocontains_abs s ids k : contains (abs_ids s ids) k = ocontains s ids k.
Proof. unfold contains, ocontains. rewrite ofields_dict_abs, dict_has_abs. reflexivity. Qed.

Lemma ogetitem_abs s e k : getitem (abs_ent s e) k = abs_res s (ogetitem s e k).
Proof.
  unfold getitem, ogetitem. simpl.
  destruct (str_eqb k k_entrytype); [reflexivity|]. destruct (str_eqb k k_id); [reflexivity|].
  rewrite ofields_dict_abs, dict_get_abs. destruct (dict_get (ofields_dict s (oids e)) k); reflexivity.
Qed.

Lemma oitems_abs s e : items (abs_ent s e) = oitems s e.
Proof. unfold items, oitems, abs_ent, abs_ids. simpl. rewrite map_map. reflexivity. Qed.

Lemma odflt_res s d : res_ok s (odflt d).
Proof. destruct d; exact I. Qed.

Lemma oget_res s ids k d : (forall i, In i ids -> In i (sdom s)) -> res_ok s (oget s ids k d).
Proof.
  intros Hok. unfold oget. destruct (dict_get (ofields_dict s ids) k) as [i|] eqn:E; simpl; [|apply odflt_res].
  apply Hok. apply (ofields_dict_get_in s ids k i E).
Qed.

Lemma ogetitem_res s e k : res_ok s (ogetitem s e k).
Proof.
  unfold ogetitem. destruct (str_eqb k k_entrytype); [exact I|]. destruct (str_eqb k k_id); [exact I|].
  destruct (dict_get (ofields_dict s (oids e)) k); exact I.
Qed.

Lemma abs_ent_extends s s' e : store_extends s s' -> ent_ok s e -> abs_ent s' e = abs_ent s e.
Proof.
  intros Hx He. unfold abs_ent. f_equal. apply abs_ids_ext. intros i Hi. apply sget_extends; auto.
Qed.

(* set_field with the object i of a store s1 that extends s (s1 = s, or s plus the object made for the call) *)
Lemma set_case s s1 e i : ent_ok s e -> store_extends s s1 -> In i (sdom s1) ->
  step (abs_ent s e) (OSetField (sget s1 i))
    = (abs_ent s1 (with_ids e (fst (oset_field s1 (oids e) i))), abs_res s1 (snd (oset_field s1 (oids e) i)))
  /\ ent_ok s1 (with_ids e (fst (oset_field s1 (oids e) i)))
  /\ res_ok s1 (snd (oset_field s1 (oids e) i)).
Proof.
  intros He Hx Hi. pose proof (ent_ok_extends s s1 e Hx He) as He1.
  rewrite <- (abs_ent_extends s s1 e Hx He). unfold step, set_field, oset_field. cbn [abs_ent efields].
  rewrite ofields_dict_abs, dict_has_abs, abs_ids_keys. fold (okeyof s1 i).
  destruct (dict_has (ofields_dict s1 (oids e)) (okeyof s1 i)); [destruct (index_of _ _) as [n|]|];
    unfold abs_ent, with_fields, with_ids, abs_ids; simpl.
  - rewrite set_nth_map. split; [reflexivity|]. split; [|exact I].
    intros j Hj. apply set_nth_in in Hj as [->|Hj]; auto.
  - auto.
  - rewrite map_app. split; [reflexivity|]. split; [|exact I].
    intros j Hj. apply in_app_iff in Hj as [Hj|[<-|[]]]; auto.
Qed.

(* pop keeps a sublist of the objects and returns one of them (or the default) *)
Lemma pop_case s e k d : ent_ok s e ->
  pop (abs_ids s (oids e)) k d = (abs_ids s (fst (opop s (oids e) k d)), abs_res s (snd (opop s (oids e) k d)))
  /\ ent_ok s (with_ids e (fst (opop s (oids e) k d))) /\ res_ok s (snd (opop s (oids e) k d)).
Proof.
  intros He. unfold pop, opop. rewrite ofields_dict_abs, dict_get_abs.
  destruct (dict_get (ofields_dict s (oids e)) k) as [i|] eqn:E; simpl.
  - unfold abs_ids. rewrite filter_map_comm. split; [reflexivity|]. split.
    + intros j Hj. apply filter_In in Hj. apply He, Hj.
    + apply He, (ofields_dict_get_in s _ k i E).
  - rewrite odflt_abs. split; [reflexivity|]. split; [exact He | apply odflt_res].
Qed.

(* the call read through the store after it is the value-level call; nothing dangles; the store has only grown *)
Lemma ostep_refines s e o s1 e1 r : ent_ok s e -> op_ok s o -> ostep s e o = (s1, e1, r) ->
  step (abs_ent s e) (abs_op s o) = (abs_ent s1 e1, abs_res s1 r)
  /\ ent_ok s1 e1 /\ res_ok s1 r /\ store_extends s s1.
Proof.
  intros He Ho.
  (* set_field(Field(...)): the object is made first, then put into the slot *)
  assert (New : forall f, ostep s e (PSetNew f) = (s1, e1, r) ->
            step (abs_ent s e) (OSetField f) = (abs_ent s1 e1, abs_res s1 r)
            /\ ent_ok s1 e1 /\ res_ok s1 r /\ store_extends s s1).
  { intros f. cbn [ostep].
    pose proof (store_extends_alloc s f) as Hx. pose proof (sget_alloc_new s f) as Hg. pose proof (salloc_dom s f) as Hd.
    destruct (salloc s f) as [s' i]. cbn [fst snd] in *.
    destruct (set_case s s' e i He Hx Hd) as (H1 & H2 & H3). rewrite Hg in H1.
    destruct (oset_field s' (oids e) i) as [ids x]. cbn [fst snd] in *. intros [= <- <- <-]. auto. }
  pose proof (store_extends_refl s) as Hx.
  (* e[k] = v is set_field(Field(k, v)) *)
  destruct o as [i|f|k v|k d|k|k d|k|k]; [| apply New | apply (New (mkfield k v None)) | ..];
    unfold step; cbn [ostep abs_op op_ok abs_ent efields] in *.
  - destruct (set_case s s e i He Hx Ho) as (H1 & H2 & H3).
    destruct (oset_field s (oids e) i) as [ids x]. intros [= <- <- <-]. auto.
  - destruct (pop_case s e k d He) as (H1 & H2 & H3). rewrite H1. destruct (opop s (oids e) k d). intros [= <- <- <-]. auto.
  - destruct (pop_case s e k None He) as (H1 & H2 & H3). rewrite H1. destruct (opop s (oids e) k None). intros [= <- <- <-]. simpl. auto.
  - intros [= <- <- <-]. rewrite oget_abs. auto 6 using oget_res.
  - intros [= <- <- <-]. rewrite ocontains_abs. simpl. auto.
  - intros [= <- <- <-]. rewrite ogetitem_abs. auto 6 using ogetitem_res.
Qed.

Lemma ostep_extends s e o : store_extends s (fst (fst (ostep s e o))).
Proof.
  assert (New : forall f, store_extends s (fst (fst (ostep s e (PSetNew f))))).
  { intros f. cbn [ostep]. pose proof (store_extends_alloc s f) as Hx. destruct (salloc s f) as [s' i].
    destruct (oset_field s' (oids e) i). exact Hx. }
  destruct o as [i|f|k v|k d|k|k d|k|k]; cbn [ostep]; try apply store_extends_refl.
  - destruct (oset_field s (oids e) i). apply store_extends_refl.
  - apply New.
  - apply (New (mkfield k v None)).
  - destruct (opop s (oids e) k d). apply store_extends_refl.
  - destruct (opop s (oids e) k None). apply store_extends_refl.
Qed.

Lemma abs_op_extends s s' o : store_extends s s' -> op_ok s o -> abs_op s' o = abs_op s o.
Proof. intros Hx Ho. destruct o; cbn [abs_op op_ok] in *; try reflexivity. rewrite (sget_extends s s'); auto. Qed.

Lemma abs_res_extends s s' r : store_extends s s' -> res_ok s r -> abs_res s' r = abs_res s r.
Proof. intros Hx Hr. destruct r; cbn [abs_res res_ok] in *; try reflexivity. rewrite (sget_extends s s'); auto. Qed.

Lemma res_ok_extends s s' r : store_extends s s' -> res_ok s r -> res_ok s' r.
Proof. intros Hx Hr. destruct r; cbn [res_ok] in *; auto. apply (Hx i). assumption. Qed.

Lemma obj_refines ops : forall s e, ent_ok s e -> ops_ok ops s e ->
  forall s' e' rs, orun ops s e = (s', e', rs) ->
  run (map (abs_op s') ops) (abs_ent s e) = (abs_ent s' e', map (abs_res s') rs)
  /\ ent_ok s' e' /\ Forall (res_ok s') rs /\ store_extends s s'.
Proof.
  induction ops as [|o r IH]; intros s e He Hok s' e' rs Hrun; cbn [orun ops_ok] in *.
  - inversion Hrun; subst. simpl. repeat split; auto using store_extends_refl.
  - destruct Hok as [Ho Hok].
    destruct (ostep s e o) as [[s1 e1] x] eqn:Es.
    destruct (ostep_refines s e o s1 e1 x He Ho Es) as (H1 & H2 & H3 & H4).
    destruct (orun r s1 e1) as [[s2 e2] xs] eqn:Er. inversion Hrun; subst.
    destruct (IH s1 e1 H2 Hok s' e' xs Er) as (I1 & I2 & I3 & I4).
    cbn [map run]. rewrite (abs_op_extends s s' o (store_extends_trans _ _ _ H4 I4) Ho). rewrite H1. rewrite I1.
    rewrite (abs_res_extends s1 s' x I4 H3).
    split; [reflexivity|]. split; [assumption|]. split.
    + constructor; [apply (res_ok_extends s1 s'); assumption | assumption].
    + apply (store_extends_trans _ _ _ H4 I4).
Qed.

(* a call on entry number (fst c) touches no existing object and no other entry *)
Lemma wstep_frame w c : store_extends (wstore w) (wstore (fst (wstep w c)))
  /\ forall b, fst c <> b -> nth_error (wents (fst (wstep w c))) b = nth_error (wents w) b.
Proof.
  unfold wstep. destruct (nth_error (wents w) (fst c)) as [e|]; [|split; [apply store_extends_refl | reflexivity]].
  pose proof (ostep_extends (wstore w) e (snd c)) as H.
  destruct (ostep (wstore w) e (snd c)) as [[s1 e1] r]. split; [exact H|]. intros b Hb. apply set_nth_other, Hb.
Qed.

Lemma wrun_frame cs : forall w, store_extends (wstore w) (wstore (fst (wrun cs w)))
  /\ forall b, (forall c, In c cs -> fst c <> b) -> nth_error (wents (fst (wrun cs w))) b = nth_error (wents w) b.
Proof.
  induction cs as [|c r IH]; intros w; cbn [wrun]; [split; [apply store_extends_refl | reflexivity]|].
  destruct (wstep_frame w c) as [H1 O1]. destruct (wstep w c) as [w1 x]. cbn [fst] in *.
  destruct (IH w1) as [H2 O2]. destruct (wrun r w1) as [w2 xs]. cbn [fst] in *. split.
  - apply (store_extends_trans _ _ _ H1 H2).
  - intros b Hb. rewrite O2, O1; [reflexivity | apply Hb; left; reflexivity | intros c' Hc; apply Hb; right; exact Hc].
Qed.

Lemma store_frame cs w i : In i (sdom (wstore w)) ->
  In i (sdom (wstore (fst (wrun cs w)))) /\ slookup (wstore (fst (wrun cs w))) i = slookup (wstore w) i.
Proof. apply (wrun_frame cs w). Qed.

(* everything an entry shows depends on the store only through the objects it holds *)
Lemma shows_same_extends s s' e : ent_ok s e -> store_extends s s' -> shows_same s s' e.
Proof.
  intros He Hx.
  assert (Ha : abs_ent s' e = abs_ent s e) by (apply abs_ent_extends; assumption).
  assert (Hd : ofields_dict s' (oids e) = ofields_dict s (oids e)).
  { apply ofields_dict_ext. intros i Hi. apply okeyof_extends; auto. }
  assert (Hg : forall k d, abs_res s' (oget s' (oids e) k d) = abs_res s (oget s (oids e) k d)).
  { intros k d. rewrite <- !oget_abs. change (abs_ids s' (oids e)) with (efields (abs_ent s' e)). rewrite Ha. reflexivity. }
  unfold shows_same. repeat split.
  - exact Ha.
  - exact Hd.
  - rewrite <- !ofields_dict_abs. change (abs_ids s' (oids e)) with (efields (abs_ent s' e)). rewrite Ha. reflexivity.
  - rewrite <- !oitems_abs. rewrite Ha. reflexivity.
  - unfold oget. rewrite Hd. reflexivity.
  - apply Hg.
  - intros k. unfold ocontains. rewrite Hd. reflexivity.
  - intros k. unfold ogetitem. rewrite Hd.
    destruct (str_eqb k k_entrytype); [reflexivity|]. destruct (str_eqb k k_id); [reflexivity|].
    destruct (dict_get (ofields_dict s (oids e)) k) as [i|] eqn:E; [|reflexivity].
    rewrite (sget_extends s s' i Hx); [reflexivity|]. apply He. apply (ofields_dict_get_in s (oids e) k i E).
Qed.

Lemma other_entries cs w b e : nth_error (wents w) b = Some e -> ent_ok (wstore w) e ->
  (forall c, In c cs -> fst c <> b) ->
  let w' := fst (wrun cs w) in
  nth_error (wents w') b = Some e
  /\ shows_same (wstore w) (wstore w') e
  /\ (forall i, In i (sdom (wstore w)) -> sget (wstore w') i = sget (wstore w) i).
Proof.
  intros Hn He Hb w'. destruct (wrun_frame cs w) as [Hx Ho]. fold w' in Hx, Ho.
  split; [|split].
  - rewrite Ho; assumption.
  - apply shows_same_extends; assumption.
  - intros i Hi. apply sget_extends; assumption.
Qed.

Lemma wstep_refines w c w1 r : world_ok w -> fst c < List.length (wents w) -> op_ok (wstore w) (snd c) ->
  wstep w c = (w1, r) ->
  vstep (abs_world w) (abs_wop (wstore w) c) = (abs_world w1, abs_res (wstore w1) r)
  /\ world_ok w1 /\ res_ok (wstore w1) r /\ store_extends (wstore w) (wstore w1).
Proof.
  intros Hw Hlt Ho Hs. unfold wstep in Hs.
  destruct (nth_error (wents w) (fst c)) as [e|] eqn:Hn; [|apply nth_error_None in Hn; lia].
  assert (He : ent_ok (wstore w) e) by (apply Hw; apply (nth_error_In _ _ Hn)).
  destruct (ostep (wstore w) e (snd c)) as [[s1 e1] x] eqn:Es. inversion Hs; subst. clear Hs.
  destruct (ostep_refines _ _ _ _ _ _ He Ho Es) as (H1 & H2 & H3 & H4).
  cbn [wstore wents]. split; [|split; [|split]]; auto.
  - unfold vstep, abs_wop, abs_world. cbn [fst snd wstore wents].
    rewrite (map_nth_error (abs_ent (wstore w)) _ _ Hn). rewrite H1.
    rewrite set_nth_map. f_equal. f_equal. apply map_ext_in. intros e' He'. symmetry. apply abs_ent_extends; auto.
  - intros e' He'. cbn [wstore wents] in *. apply set_nth_in in He'. destruct He' as [He'|He']; [subst; assumption|].
    apply (ent_ok_extends (wstore w)); auto.
Qed.

Lemma abs_wop_extends s s' c : store_extends s s' -> op_ok s (snd c) -> abs_wop s' c = abs_wop s c.
Proof. intros Hx Ho. unfold abs_wop. rewrite (abs_op_extends s s'); auto. Qed.

Lemma world_refines cs : forall w, world_ok w -> wops_ok cs w ->
  forall w' rs, wrun cs w = (w', rs) ->
  vrun (map (abs_wop (wstore w')) cs) (abs_world w) = (abs_world w', map (abs_res (wstore w')) rs)
  /\ world_ok w' /\ Forall (res_ok (wstore w')) rs /\ store_extends (wstore w) (wstore w').
Proof.
  induction cs as [|c r IH]; intros w Hw Hok w' rs Hrun; cbn [wrun wops_ok] in *.
  - inversion Hrun; subst. simpl. split; [reflexivity|]. split; [assumption|]. split; [constructor | apply store_extends_refl].
  - destruct Hok as [[Hlt Ho] Hok].
    destruct (wstep w c) as [w1 x] eqn:Es. cbn [fst] in Hok.
    destruct (wstep_refines w c w1 x Hw Hlt Ho Es) as (H1 & H2 & H3 & H4).
    destruct (wrun r w1) as [w2 xs] eqn:Er. inversion Hrun; subst.
    destruct (IH w1 H2 Hok w' xs Er) as (I1 & I2 & I3 & I4).
    cbn [map vrun]. rewrite (abs_wop_extends (wstore w) (wstore w') c (store_extends_trans _ _ _ H4 I4) Ho).
    rewrite H1. rewrite I1. rewrite (abs_res_extends (wstore w1) (wstore w') x I4 H3).
    split; [reflexivity|]. split; [assumption|]. split.
    + constructor; [apply (res_ok_extends (wstore w1) (wstore w')); assumption | assumption].
    + apply (store_extends_trans _ _ _ H4 I4).
Qed.

From Coq Require Import String.
(* objects 1, 2: the fields of entry A (entry 0); object 3: the one field of entry B (entry 1) *)
Definition ex_store : fstore :=
  [(3, mkfield (lit "title") (VStr (lit "old")) None);
   (2, mkfield (lit "year") (VStr (lit "2000")) (Some 3%Z));
   (1, mkfield (lit "title") (VStr (lit "T")) (Some 2%Z))].
Definition ex_world : world :=
  mkworld ex_store [mkoent (lit "article") (lit "a") [1; 2]; mkoent (lit "book") (lit "b") [3]].
(* f = A.get("title");  B.set_field(f);  A["title"] = "X";  B["title"];  A["title"] *)
Definition ex_wops : list wop :=
  [(0, PGet (lit "title") None); (1, PSetObj 1); (0, PSetItem (lit "title") (VStr (lit "X")));
   (1, PGetItem (lit "title")); (0, PGetItem (lit "title"))].
(* B = Entry("book", "b", list(A.fields)): the same two objects in another list *)
Definition ex_world2 : world :=
  mkworld ex_store [mkoent (lit "article") (lit "a") [1; 2]; mkoent (lit "book") (lit "b") [1; 2]].
Definition ex_wops2 : list wop := [(0, PSetItem (lit "title") (VStr (lit "X")))].

Lemma example_obj_hypotheses :
  world_ok ex_world /\ wops_ok ex_wops ex_world /\ world_ok ex_world2 /\ wops_ok ex_wops2 ex_world2.
Proof.
  assert (W1 : world_ok ex_world).
  { intros e He i Hi. simpl in He. destruct He as [He|[He|[]]]; subst e; simpl in Hi; simpl; tauto. }
  assert (W2 : world_ok ex_world2).
  { intros e He i Hi. simpl in He. destruct He as [He|[He|[]]]; subst e; simpl in Hi; simpl; tauto. }
  split; [exact W1|]. split; [|split; [exact W2|]].
  - vm_compute. repeat split; auto; lia.
  - vm_compute. repeat split; auto; lia.
Qed.

(* entry B holds the object it was given (1) and still shows "T" after A["title"] = "X"; A holds a new object (4) in
   the same slot; the result of the earlier get (object 1) still shows "T" *)
Lemma example_obj_run :
  let w' := fst (wrun ex_wops ex_world) in
  map oids (wents w') = [[4; 2]; [1]]
  /\ snd (wrun ex_wops ex_world) = [OObj 1; ONone; ONone; OVal (VStr (lit "T")); OVal (VStr (lit "X"))]
  /\ sget (wstore w') 1 = mkfield (lit "title") (VStr (lit "T")) (Some 2%Z)
  /\ sget (wstore w') 4 = mkfield (lit "title") (VStr (lit "X")) None.
Proof. vm_compute. repeat split; reflexivity. Qed.

Lemma example_obj_shared :
  let w' := fst (wrun ex_wops2 ex_world2) in
  nth_error (abs_world ex_world2) 1 = Some (abs_ent ex_store (mkoent (lit "book") (lit "b") [1; 2]))
  /\ nth_error (abs_world w') 1 = nth_error (abs_world ex_world2) 1
  /\ nth_error (abs_world w') 0 <> nth_error (abs_world ex_world2) 0.
Proof. vm_compute. repeat split; try reflexivity. intros H. discriminate H. Qed.

(* the alternative item assignment (write into the object in the slot): the untouched entry B changes, and so does
   what the object handed out before shows *)
Lemma obj_inplace_refuted :
  exists cs w b e, world_ok w /\ wops_ok cs w /\ nth_error (wents w) b = Some e /\ (forall c, In c cs -> fst c <> b)
    /\ abs_ent (wstore (fst (wrun_inplace cs w))) e <> abs_ent (wstore w) e
    /\ exists i, In i (sdom (wstore w)) /\ sget (wstore (fst (wrun_inplace cs w))) i <> sget (wstore w) i.
Proof.
  exists ex_wops2, ex_world2, 1, (mkoent (lit "book") (lit "b") [1; 2]).
  destruct example_obj_hypotheses as (_ & _ & W & P).
  split; [exact W|]. split; [exact P|]. split; [reflexivity|]. split.
  - intros c [Hc|[]]. subst c. simpl. discriminate.
  - split.
    + vm_compute. intros H. discriminate H.
    + exists 1. split; [simpl; tauto|]. vm_compute. intros H. discriminate H.
Qed.

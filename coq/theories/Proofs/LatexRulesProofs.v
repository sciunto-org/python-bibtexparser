(* What the encoder rules configured in latex_encoding.py do (Model/LatexRules.v), for every text and every default
   conversion [enc_char].  In particular the root causes of the known findings K5 and K6 as theorems:
   - encode_keeps_first_to_last_dollar: with keep_math, on one line, EVERYTHING from the first dollar to the last dollar that
     is not preceded by a backslash is copied as it is, whatever stands between (other spans, `&`, `%`): K5;
   - encode_url_raw: with enclose_urls, a matched URL is put between \url{ and } exactly as it is, nothing in it is
     converted: K6. *)
From Coq Require Import List NArith Bool Arith Lia.
From BP Require Import Base.Chars Model.LatexRules.
Import ListNotations.

(* the flag "previous source character is a backslash" after passing over n characters of s *)
Fixpoint pb_after (pb : bool) (n : nat) (s : str) : bool :=
  match n, s with
  | S k, c :: r => pb_after (ceq c c_bs) k r
  | _, _ => pb
  end.

Section Proofs.
  Variable enc_char : ch -> str.
  Notation enc_go := (enc_go enc_char).
  Notation encode := (encode enc_char).

  (* passing over the rest of a match is skipping that many characters *)
  Lemma enc_skip : forall km eu n s pb, enc_go km eu pb n s = enc_go km eu (pb_after pb n s) 0 (skipn n s).
  Proof.
    intros km eu n. induction n as [|k IH]; intros s pb; [destruct s; reflexivity|].
    destruct s as [|c r]; [reflexivity|]. simpl. apply IH.
  Qed.

  (* both rules off: the default conversion, character by character *)
  Theorem encode_no_rules : forall s, encode false false s = flat_map enc_char s.
  Proof.
    intros s. unfold encode, LatexRules.encode.
    assert (G : forall pb, enc_go false false pb 0 s = flat_map enc_char s); [|apply G].
    induction s as [|c r IH]; intros pb; [reflexivity|]. cbn [LatexRules.enc_go flat_map]. rewrite IH. reflexivity.
  Qed.

  Definition no_nl (u : str) : Prop := forall c, In c u -> ceq c c_nl = false.

  Lemma math_k_step : forall a b t i best,
    math_k (a :: b :: t) i best
    = if ceq a c_nl then (if negb (ceq a c_bs) && ceq b c_dollar then Some i else best)
      else math_k (b :: t) (S i) (if negb (ceq a c_bs) && ceq b c_dollar then Some i else best).
  Proof. reflexivity. Qed.

  Lemma math_match_not_dollar : forall pb c r, ceq c c_dollar = false -> math_match pb (c :: r) = None.
  Proof. intros pb c r H. unfold math_match. rewrite H. reflexivity. Qed.

  (* the math rule: a match is written as it is, and conversion resumes after it *)
  Theorem encode_math_raw : forall eu s m pb, math_match pb s = Some m ->
    enc_go true eu pb 0 s = m ++ enc_go true eu (pb_after pb (length m) s) 0 (skipn (length m) s).
  Proof.
    intros eu s m pb H. destruct s as [|c r]; [discriminate|]. cbn [LatexRules.enc_go]. rewrite H, enc_skip.
    unfold math_match in H. destruct (ceq c c_dollar && negb pb); [|discriminate].
    destruct (math_k r 0 None); [|discriminate]. injection H as <-.
    cbn [length pb_after skipn Nat.sub]. rewrite Nat.sub_0_r. reflexivity.
  Qed.

  Definition no_dollar (u : str) : Prop := forall c, In c u -> ceq c c_dollar = false.

  (* the flag after passing over all of [pre]: its last character decides *)
  Lemma pb_after_all : forall pre rest pb,
    pb_after pb (length pre) (pre ++ rest) = match pre with [] => pb | _ => ceq (last pre c_sp) c_bs end.
  Proof.
    induction pre as [|c r IH]; intros rest pb; [reflexivity|]. cbn [length app pb_after]. rewrite IH. destruct r; reflexivity.
  Qed.

  (* without a dollar the math rule never fires: a dollar-free prefix is converted character by character *)
  Lemma enc_go_no_dollar_prefix : forall pre rest pb, no_dollar pre ->
    enc_go true false pb 0 (pre ++ rest)
    = flat_map enc_char pre ++ enc_go true false (pb_after pb (length pre) (pre ++ rest)) 0 rest.
  Proof.
    induction pre as [|c r IH]; intros rest pb N; [reflexivity|].
    cbn [app flat_map LatexRules.enc_go length pb_after].
    rewrite (math_match_not_dollar pb c _ (N c (or_introl eq_refl))), <- app_assoc. f_equal.
    apply IH. intros x I. apply N. right. exact I.
  Qed.

  Lemma enc_go_no_dollar : forall s pb, no_dollar s -> enc_go true false pb 0 s = flat_map enc_char s.
  Proof. intros s pb N. rewrite <- (app_nil_r s) at 1. rewrite enc_go_no_dollar_prefix by exact N. apply app_nil_r. Qed.

  Lemma math_k_no_dollar : forall t i best, no_dollar (tl t) -> math_k t i best = best.
  Proof.
    induction t as [|a t IH]; intros i best N; [reflexivity|].
    destruct t as [|b t']; [reflexivity|]. rewrite math_k_step.
    assert (Hb : ceq b c_dollar = false) by (apply N; left; reflexivity).
    rewrite Hb, andb_false_r. destruct (ceq a c_nl); [reflexivity|].
    apply IH. intros x I. apply N. right. exact I.
  Qed.

  (* the last dollar of the line that is not preceded by a backslash closes the span *)
  Lemma math_k_span : forall u x post i best, no_nl u -> ceq x c_bs = false -> no_dollar post ->
    math_k (u ++ [x; c_dollar] ++ post) i best = Some (i + length u).
  Proof.
    induction u as [|a u IH]; intros x post i best N X P.
    - cbn [app length]. rewrite Nat.add_0_r. rewrite math_k_step, X. cbn [negb andb].
      replace (ceq c_dollar c_dollar) with true by reflexivity.
      destruct (ceq x c_nl); [reflexivity|]. apply math_k_no_dollar. exact P.
    - assert (Na : ceq a c_nl = false) by (apply N; left; reflexivity).
      assert (Nu : no_nl u) by (intros c I; apply N; right; exact I).
      change ((a :: u) ++ [x; c_dollar] ++ post) with (a :: (u ++ [x; c_dollar] ++ post)).
      destruct (u ++ [x; c_dollar] ++ post) as [|b t'] eqn:E; [destruct u; discriminate|].
      rewrite math_k_step, Na. rewrite <- E. rewrite IH by assumption. simpl. f_equal. lia.
  Qed.

  Lemma math_match_span : forall u x post, no_nl u -> ceq x c_bs = false -> no_dollar post ->
    math_match false (c_dollar :: u ++ [x; c_dollar] ++ post) = Some (c_dollar :: u ++ [x; c_dollar]).
  Proof.
    intros u x post N X P. unfold math_match.
    replace (ceq c_dollar c_dollar) with true by reflexivity. cbn [negb andb].
    rewrite (math_k_span u x post 0 None N X P). cbn [plus]. rewrite app_assoc.
    replace (length u + 2) with (length (u ++ [x; c_dollar])) by (rewrite app_length; simpl; lia).
    rewrite firstn_app, Nat.sub_diag, firstn_all, firstn_O, app_nil_r. reflexivity.
  Qed.

  Lemma skipn_length_app : forall (m rest : str), skipn (length m) (m ++ rest) = rest.
  Proof. induction m as [|c m IH]; intros rest; [reflexivity | apply IH]. Qed.

  (* K5: with keep_math, a text that starts with a dollar, has no line break, and ends in a dollar not preceded by a
     backslash is copied whole - nothing between the first and the last dollar is converted *)
  Theorem encode_keeps_first_to_last_dollar : forall eu u x, no_nl u -> ceq x c_bs = false ->
    encode true eu (c_dollar :: u ++ [x; c_dollar]) = c_dollar :: u ++ [x; c_dollar].
  Proof.
    intros eu u x N X. unfold encode, LatexRules.encode.
    pose proof (math_match_span u x [] N X (fun c I => match I with end)
                : math_match false (c_dollar :: u ++ [x; c_dollar]) = _) as M.
    rewrite (encode_math_raw eu _ _ false M), skipn_all. apply app_nil_r.
  Qed.

  (* pre $ body x $ post, no other dollar, no line break inside the span, the opening dollar not after a backslash:
     the span is copied, pre and post are converted character by character (URL rule off) *)
  Theorem encode_single_span : forall pre u x post,
    no_dollar pre -> ceq (last pre c_sp) c_bs = false ->
    no_nl u -> ceq x c_bs = false -> no_dollar post ->
    encode true false (pre ++ c_dollar :: u ++ [x; c_dollar] ++ post)
    = flat_map enc_char pre ++ (c_dollar :: u ++ [x; c_dollar]) ++ flat_map enc_char post.
  Proof.
    intros pre u x post Npre Lpre Nu X Npost. unfold encode, LatexRules.encode.
    rewrite enc_go_no_dollar_prefix, pb_after_all by exact Npre. f_equal.
    (* the opening dollar is not behind a backslash *)
    replace (match pre with [] => false | _ => ceq (last pre c_sp) c_bs end) with false
      by (destruct pre; [reflexivity | symmetry; exact Lpre]).
    rewrite (encode_math_raw false _ _ false (math_match_span u x post Nu X Npost)), (app_assoc u).
    rewrite (skipn_length_app (c_dollar :: u ++ [x; c_dollar]) post : skipn _ (c_dollar :: (u ++ [x; c_dollar]) ++ post) = _).
    rewrite enc_go_no_dollar by exact Npost. reflexivity.
  Qed.

  (* a URL match starts with `h` or `w`, hence never with a dollar: the math rule does not fire there *)
  Lemma url_match_head : forall s m, url_match s = Some m -> exists c r, s = c :: r /\ (ceq c c_h = true \/ ceq c c_w = true).
  Proof.
    intros s m H. destruct s as [|c r]; [discriminate|]. exists c, r. split; [reflexivity|].
    unfold url_match in H. cbn [starts_with app] in H.
    destruct (N.eqb c_h c) eqn:Eh.
    - left. unfold ceq. rewrite N.eqb_sym. exact Eh.
    - simpl in H. destruct r as [|b [|c2 [|d t]]]; try discriminate.
      right. destruct (ceq c c_w); [reflexivity | simpl in H; discriminate].
  Qed.

  Lemma nonspace_run_prefix : forall t, exists rest, t = nonspace_run t ++ rest.
  Proof.
    induction t as [|c r [rest IH]]; [exists []; reflexivity|]. simpl.
    destruct (isspace c); [exists (c :: r); reflexivity | exists rest; simpl; f_equal; exact IH].
  Qed.

  Lemma dotted_run_shape : forall t r, dotted_run t = Some r -> r <> [] /\ exists rest, t = r ++ rest.
  Proof.
    intros t r H. unfold dotted_run in H. destruct (has_dot (nonspace_run t)) eqn:D; [|discriminate].
    injection H as <-. split; [|apply nonspace_run_prefix]. intros E. rewrite E in D. discriminate.
  Qed.

  (* a match is a fixed head [p] of the text followed by a dotted run, and the text goes on behind it *)
  Lemma dotted_tail_shape : forall s p t m, s = p ++ t ->
    match dotted_run t with Some r => Some (p ++ r) | None => None end = Some m ->
    m <> [] /\ exists rest, s = m ++ rest.
  Proof.
    intros s p t m -> E. destruct (dotted_run t) as [r|] eqn:R; [|discriminate]. injection E as <-.
    destruct (dotted_run_shape _ _ R) as (Hr & rest & ->). split.
    - intros E. apply app_eq_nil in E as [_ E]. exact (Hr E).
    - exists rest. apply app_assoc.
  Qed.

  Lemma url_match_shape : forall s m, url_match s = Some m -> m <> [] /\ exists rest, s = m ++ rest.
  Proof.
    intros s m H. unfold url_match in H.
    match type of H with match ?X with _ => _ end = _ => destruct X as [m0|] eqn:T end.
    - injection H as ->. revert T.
      destruct (starts_with _ s); [exact (dotted_tail_shape s _ _ m (eq_sym (firstn_skipn 8 s)))|].
      destruct (starts_with _ s); [exact (dotted_tail_shape s _ _ m (eq_sym (firstn_skipn 7 s))) | discriminate].
    - clear T. destruct s as [|a [|b [|c [|d t]]]]; try discriminate.
      destruct (ceq a c_w && ceq b c_w && ceq c c_w && negb (ceq d c_nl)); [|discriminate].
      exact (dotted_tail_shape _ [a; b; c; d] t m eq_refl H).
  Qed.

  (* the URL rule: a matched URL is written raw between \url{ and }, and conversion resumes after it *)
  Theorem encode_url_raw : forall km s m pb, url_match s = Some m ->
    enc_go km true pb 0 s = url_open ++ m ++ [c_rb] ++ enc_go km true (pb_after pb (length m) s) 0 (skipn (length m) s).
  Proof.
    intros km s m pb H. destruct (url_match_head s m H) as (c & r & -> & Hc).
    assert (D : ceq c c_dollar = false) by (destruct Hc as [Hc|Hc]; apply N.eqb_eq in Hc; subst c; reflexivity).
    cbn [LatexRules.enc_go]. rewrite (math_match_not_dollar pb c r D).
    replace (if km then None else None) with (@None str) by (destruct km; reflexivity).
    rewrite H. rewrite enc_skip.
    destruct (url_match_shape _ _ H) as [Nm _]. destruct m as [|x m']; [contradiction|].
    replace (length (x :: m') - 1) with (length m') by (simpl; lia). reflexivity.
  Qed.

End Proofs.

(* "the switch was given" as the constructors test it *)
Lemma given_iff {A} (x : option A) : match x with Some _ => true | None => false end = true <-> x <> None.
Proof. destruct x; split; [discriminate | reflexivity | discriminate | intros H; contradiction H; reflexivity]. Qed.

(* the constructors refuse exactly the combination "custom converter AND one of the two switches given": the refusal is
   the test [custom && (given a || given b)] *)
Lemma resolve_options_refuses : forall custom a b da db,
  resolve_options custom a b da db = None <-> custom = true /\ (a <> None \/ b <> None).
Proof.
  intros custom a b da db. rewrite <- !given_iff, <- orb_true_iff, <- andb_true_iff. unfold resolve_options.
  destruct (custom && _); split; congruence.
Qed.

Lemma resolve_options_defaults : forall da db, resolve_options false None None da db = Some (false, da, db).
Proof. reflexivity. Qed.

(* C05: the document the writer produces is a well-formed duplicate-free dialect document. *)
From Coq Require Import List NArith ZArith Bool Lia String.
From BP Require Import Base.Chars Model.Blocks Gen.Constants Model.Writer Model.Splitter Model.Interpolate
  Model.Grammar Spec.C05 Proofs.EnclosingProofs Proofs.SplitGrammar Proofs.RoundTrip Proofs.RoundTrip2
  Proofs.RoundTrip3 Proofs.RoundTrip4.
Import ListNotations.

(* A content list is clean when the writer's text for it is a document of the grammar: every value is a well-formed
   brace content, names and keys are names of the grammar, an entry type is lower-case and none of comment / preamble /
   string, field names are distinct, a comment is stripped, no two free texts are adjacent; and no '@' inside a text
   starts a block, whatever the writer puts behind the text ([nat_ok]: side condition G of the grammar must hold of
   the written document, where the text is followed by the writer's own characters). *)
Definition wf_cb (b : braced) : Prop := wf_braced false b = true /\ nat_ok (render_braced b).
Definition wf_cfield (p : str * braced) : Prop := name_ok (fst p) = true /\ nat_ok (fst p) /\ wf_cb (snd p).
Definition typ_clean (t : str) : Prop :=
  typ_ok t = true /\ lower t = t /\
  negb (starts_with s_comment t) && negb (starts_with s_preamble t) && negb (starts_with s_string t) = true.
Definition wf_citem (c : citem) : Prop :=
  match c with
  | CEntry t k fs => typ_clean t /\ name_ok k = true /\ ends_bs false k = false /\ nat_ok k
                     /\ Forall wf_cfield fs /\ fresh_all [] (map fst fs) = true
  | CString n b => name_ok n = true /\ nat_ok n /\ wf_cb b
  | CPre b => wf_cb b
  | CExpl b => wf_cb b /\ strip (render_braced b) = render_braced b
  | CFree t => tight t = true /\ nat_ok t
  end.
Definition cfree (c : citem) : bool := match c with CFree _ => true | _ => false end.
Fixpoint wf_cs (prev_free : bool) (cs : list citem) : Prop :=
  match cs with
  | [] => True
  | c :: r => wf_citem c /\ cfree c && prev_free = false /\ wf_cs (cfree c) r
  end.

Definition noatc (s : str) : bool := forallb (fun c => negb (c =? c_at)%N) s.
Lemma noat_plain s R : noatc s = true -> noat s R = true.
Proof. apply noat_no_at. Qed.
Lemma noatc_app a b : noatc (a ++ b) = noatc a && noatc b.
Proof. apply forallb_app. Qed.

Lemma noat_txt_app v X R : nat_ok v -> tailok (X ++ R) -> noat (v ++ X) R = noat X R.
Proof. intros H T. rewrite noat_app, (H _ T). reflexivity. Qed.

Lemma is_ws_pad col k : is_ws (pad col k) = true.
Proof. unfold pad. induction (col - List.length k - List.length val_sep)%nat; [reflexivity|]. cbn [repeat is_ws forallb]. exact IHn. Qed.
Lemma is_hws_pad col k : is_hws (pad col k ++ [c_sp]) = true.
Proof.
  unfold pad. induction (col - List.length k - List.length val_sep)%nat; [reflexivity|]. cbn [repeat is_hws forallb app].
  exact IHn.
Qed.

Lemma tailok_pad col k z R : tailok ((pad col k ++ c_sp :: c_eq :: z) ++ R).
Proof.
  exists (pad col k ++ [c_sp]), c_eq, (z ++ R). split; [norm_app; reflexivity|]. split; [apply is_hws_pad | reflexivity].
Qed.

(* a value between braces, whatever follows the closing brace *)
Lemma noat_braced v X R : nat_ok v -> noat (c_lb :: v ++ c_rb :: X) R = noat X R.
Proof.
  intros H. rewrite noat_cons_plain by reflexivity. rewrite (noat_txt_app v) by (try exact H; apply tailok_stop; reflexivity).
  apply noat_cons_plain. reflexivity.
Qed.

(* one field line is self-contained for side condition G *)
Lemma noat_field_text indent col p X R : is_ws indent = true -> wf_cfield p ->
  noat (field_text indent col p ++ X) R = noat X R.
Proof.
  intros Hi (Hn & Hk & Hb & Hv). unfold field_text. change val_sep with [c_sp; c_eq; c_sp]. norm_app.
  rewrite (noat_plain_app indent) by (apply no_at_ws, Hi).
  rewrite (noat_txt_app (fst p)) by (try exact Hk; apply tailok_pad).
  rewrite (noat_plain_app (pad col (fst p))) by (apply no_at_ws, is_ws_pad).
  do 3 (rewrite noat_cons_plain by reflexivity). apply noat_braced, Hv.
Qed.

Lemma noat_fields_text indent col tr fs : forall X R, is_ws indent = true -> Forall wf_cfield fs ->
  noat (fields_text indent col tr fs ++ X) R = noat X R.
Proof.
  induction fs as [|p r IH]; intros X R Hi F; [reflexivity|]. inversion F as [|? ? Hp Fr]; subst.
  cbn [fields_text]. norm_app. rewrite (noat_field_text indent col p _ R Hi Hp).
  destruct (tr || negb (isnil r)); norm_app; rewrite !noat_cons_plain by reflexivity; apply IH; assumption.
Qed.

(* the text of an item body as the writer lays it out *)
Lemma body_entry indent col tr t k fs :
  render_body (ast_item indent col tr (CEntry t k fs)) = t ++ c_lb :: k ++ c_comma :: c_nl :: fields_text indent col tr fs ++ [c_rb].
Proof.
  cbn [ast_item render_body]. unfold entry_head. cbn [render_etail]. rewrite render_ast_fields. norm_app. reflexivity.
Qed.
Lemma body_string indent col tr n b :
  render_body (ast_item indent col tr (CString n b))
  = s_string ++ c_lb :: n ++ c_sp :: c_eq :: c_sp :: c_lb :: render_braced b ++ [c_rb; c_rb].
Proof. cbn [ast_item render_body]. rewrite render_gv1. cbn [render_piece]. norm_app. reflexivity. Qed.

Lemma typ_clean_word t : typ_clean t -> forallb isword t = true.
Proof. intros (H & _). destruct (typ_tight t H) as [_ W]. exact W. Qed.

Lemma noat_body indent col tr c g R : is_ws indent = true -> wf_citem c ->
  noat (render_body (ast_item indent col tr c) ++ c_nl :: g) R = noat g R.
Proof.
  intros Hi W. destruct c as [t k fs|n b|b|b|t].
  - destruct W as (Ht & Hk & _ & Nk & F & _). rewrite body_entry. norm_app.
    rewrite (noat_plain_app t) by (apply no_at_word, typ_clean_word, Ht).
    rewrite noat_cons_plain by reflexivity.
    rewrite (noat_txt_app k) by (try exact Nk; apply tailok_stop; reflexivity).
    rewrite !noat_cons_plain by reflexivity. rewrite noat_fields_text by assumption.
    rewrite !noat_cons_plain by reflexivity. reflexivity.
  - destruct W as (Hn & Nn & Hb & Nb). rewrite body_string. norm_app.
    rewrite (noat_plain_app s_string) by reflexivity. rewrite noat_cons_plain by reflexivity.
    rewrite (noat_txt_app n) by (try exact Nn; exists [c_sp], c_eq; eexists; repeat split).
    do 3 (rewrite noat_cons_plain by reflexivity). rewrite noat_braced by exact Nb.
    rewrite !noat_cons_plain by reflexivity. reflexivity.
  - destruct W as (Hb & Nb). cbn [ast_item render_body]. norm_app.
    rewrite (noat_plain_app s_preamble), noat_braced by (reflexivity || exact Nb). apply noat_cons_plain. reflexivity.
  - destruct W as ((Hb & Nb) & _). cbn [ast_item render_body]. norm_app.
    rewrite (noat_plain_app s_comment), noat_braced by (reflexivity || exact Nb). apply noat_cons_plain. reflexivity.
  - destruct W as (_ & Nt). cbn [ast_item render_body].
    rewrite (noat_txt_app t) by (try exact Nt; apply tailok_stop; reflexivity).
    rewrite noat_cons_plain by reflexivity. reflexivity.
Qed.

Lemma wf_gv1_braced b : wf_braced false b = true -> wf_value (gv1 (PBraced b)) = true.
Proof. intros H. unfold wf_value, gv1. cbn. rewrite H. reflexivity. Qed.
Lemma ends_bs_braced b post : post = [] \/ post = [c_nl] ->
  ends_bs false (render_value (gv1 (PBraced b)) ++ post) = false.
Proof.
  rewrite render_gv1. cbn [render_piece]. intros [->| ->].
  - rewrite app_nil_r. change (c_lb :: render_braced b ++ [c_rb]) with ((c_lb :: render_braced b) ++ [c_rb]). apply ends_bs_snoc.
  - apply ends_bs_snoc.
Qed.

Lemma wf_ast_field indent col p post : is_ws indent = true -> wf_cfield p -> post = [] \/ post = [c_nl] ->
  wf_field (ast_field indent col p post) = true.
Proof.
  intros Hi (Hn & _ & Hb & _) Hp. unfold wf_field, ast_field. cbn [g_pre g_name g_w1 g_w2 g_val g_post].
  rewrite (ends_bs_braced (snd p) post Hp), (wf_gv1_braced _ Hb), Hn. rewrite app_assoc, ends_bs_snoc.
  rewrite is_ws_app, is_ws_pad. change (is_ws (c_nl :: indent)) with (isspace c_nl && is_ws indent). rewrite Hi.
  destruct Hp as [->| ->]; reflexivity.
Qed.

Lemma wf_ast_fields indent col tr fs : is_ws indent = true -> Forall wf_cfield fs ->
  wf_fields (ast_fields indent col tr fs) = true.
Proof.
  intros Hi F. induction F as [|p r Hp F IH]; [reflexivity|]. cbn [ast_fields]. destruct r as [|p2 r].
  - destruct tr; cbn [wf_fields]; rewrite wf_ast_field; auto.
  - cbn [wf_fields]. rewrite wf_ast_field by auto. exact IH.
Qed.

Lemma wf_ast_item indent col tr c : is_ws indent = true -> wf_citem c -> wf_item (ast_item indent col tr c) = true.
Proof.
  intros Hi W. destruct c as [t k fs|n b|b|b|t]; cbn [ast_item wf_item].
  - destruct W as ((Ht & Hl & Hx) & Hk & Ek & _ & F & _). apply andb_true_iff in Hx as [Hx X3].
    apply andb_true_iff in Hx as [X1 X2]. rewrite Hl, X1, X2, X3, Ht, Hk, app_nil_r, Ek.
    cbn [wf_etail]. rewrite wf_ast_fields by assumption. reflexivity.
  - destruct W as (Hn & _ & Hb & _). rewrite Hn, (wf_gv1_braced _ Hb), ends_bs_snoc, (ends_bs_braced b []) by (left; reflexivity).
    reflexivity.
  - destruct W as (Hb & _). rewrite Hb. reflexivity.
  - destruct W as ((Hb & _) & _). rewrite Hb. reflexivity.
  - destruct W as (Ht & _). exact Ht.
Qed.

Lemma is_free_ast indent col tr c : is_free (ast_item indent col tr c) = cfree c.
Proof. destruct c; reflexivity. Qed.

Lemma wf_ast_items indent col tr sep cs : forall prev, is_ws indent = true -> is_ws sep = true ->
  wf_cs prev cs -> wf_items prev (ast_items indent col tr sep cs) = true.
Proof.
  induction cs as [|c r IH]; intros prev Hi Hs W; [reflexivity|]. destruct W as (Wc & Hf & Wr).
  cbn [ast_items wf_items]. set (g := match r with [] => [] | _ => sep end).
  assert (G : is_ws g = true) by (subst g; destruct r; [reflexivity | exact Hs]).
  rewrite (wf_ast_item _ _ _ c Hi Wc), is_free_ast, Hf, (IH (cfree c) Hi Hs Wr).
  rewrite noat_body by assumption.
  rewrite (noat_ws _ _ G). change (is_ws (c_nl :: g)) with (isspace c_nl && is_ws g). rewrite G. reflexivity.
Qed.

Lemma wf_fmt_ws f : wf_fmt f -> is_ws (f_indent f) = true /\ is_ws (f_sep f) = true.
Proof. intros [A B]. unfold is_ws. rewrite !forallb_forall. rewrite Forall_forall in A, B. split; assumption. Qed.

Theorem wf_ast_fmt f cs : wf_fmt f -> wf_cs false cs -> wf_doc (ast_fmt f cs).
Proof.
  intros Hf W. destruct (wf_fmt_ws f Hf) as [Hi Hs]. unfold wf_doc, wf_doc_b, ast_fmt, ast_of. cbn [d_gap0 d_items is_ws forallb andb].
  apply wf_ast_items; assumption.
Qed.

(* its parse: every value is one braced piece, nothing is resolved, exactly that layer is removed *)
Lemma enclosed_braced s : enclosedb (c_lb :: s ++ [c_rb]) = true.
Proof.
  unfold enclosedb, nonstring_or_enclosed, first_is, last_is. rewrite rv_rev.
  change (c_lb :: s ++ [c_rb]) with ((c_lb :: s) ++ [c_rb]). rewrite rev_app_distr. cbn [rev app]. apply orb_true_r.
Qed.

Lemma parsed_field_braced bs n b ln : wf_braced false b = true ->
  parsed_field bs (mkfield n (VStr (render_value (gv1 (PBraced b)))) ln) = (n, cval b).
Proof.
  intros W. unfold parsed_field. cbn [fkey fval str_of]. rewrite render_gv1. cbn [render_piece].
  unfold res_str. rewrite enclosed_braced. unfold stripv. rewrite strip_enclosing_braced by exact W. reflexivity.
Qed.

Lemma parsed_fields_ast bs indent col tr fs : forall ln, Forall wf_cfield fs ->
  map (parsed_field bs) (exp_fields ln (ast_fields indent col tr fs)) = map (fun p => (fst p, cval (snd p))) fs.
Proof.
  induction fs as [|p r IH]; intros ln F; [reflexivity|]. inversion F as [|? ? (_ & _ & Hb & _) Fr]; subst.
  cbn [ast_fields]. destruct r as [|p2 r].
  - destruct tr; cbn [exp_fields map]; unfold exp_field, ast_field; cbn [g_name g_val]. all: rewrite (parsed_field_braced bs (fst p) (snd p) _ Hb); reflexivity.
  - cbn [exp_fields map]. rewrite IH by exact Fr. unfold exp_field, ast_field. cbn [g_name g_val].
    rewrite (parsed_field_braced bs (fst p) (snd p) _ Hb). reflexivity.
Qed.

Lemma parsed_content1_ast bs indent col tr c ln : wf_citem c -> parsed_content1 bs (block_of ln (ast_item indent col tr c)) = cc1 c.
Proof.
  intros W. destruct c as [t k fs|n b|b|b|t]; cbn [ast_item block_of parsed_content1 cc1 content1].
  - destruct W as ((_ & Hl & _) & _ & _ & _ & F & _). rewrite Hl, parsed_fields_ast by exact F. reflexivity.
  - destruct W as (_ & _ & Hb & _). cbn [str_of]. rewrite render_gv1. cbn [render_piece]. unfold stripv.
    rewrite strip_enclosing_braced by exact Hb. reflexivity.
  - reflexivity.
  - destruct W as (_ & Hs). rewrite Hs. reflexivity.
  - reflexivity.
Qed.

Lemma pcontent_ast_items bs indent col tr sep cs : forall prev ln, wf_cs prev cs ->
  map (parsed_content1 bs) (exp_items ln (ast_items indent col tr sep cs)) = ccontent cs.
Proof.
  induction cs as [|c r IH]; intros prev ln W; [reflexivity|]. destruct W as (Wc & _ & Wr).
  cbn [ast_items exp_items map ccontent]. rewrite parsed_content1_ast by exact Wc. f_equal. exact (IH _ _ Wr).
Qed.

Theorem pcontent_ast f cs : wf_cs false cs -> pcontent (ast_fmt f cs) = ccontent cs.
Proof. intros W. unfold pcontent, expected, ast_fmt, ast_of. cbn [d_gap0 d_items]. exact (pcontent_ast_items _ _ _ _ _ cs false _ W). Qed.

Lemma field_names_ast indent col tr fs : field_names (ast_fields indent col tr fs) = map fst fs.
Proof.
  induction fs as [|p r IH]; [reflexivity|]. cbn [ast_fields]. destruct r as [|p2 r].
  - destruct tr; reflexivity.
  - cbn [field_names map]. rewrite IH. reflexivity.
Qed.
Lemma ekeys_ast indent col tr sep cs :
  flat_map (fun p => item_ekey (fst p)) (ast_items indent col tr sep cs) = flat_map ekey_c (ccontent cs).
Proof. induction cs as [|c r IH]; [reflexivity|]. cbn [ast_items flat_map ccontent map fst]. rewrite IH. destruct c; reflexivity. Qed.
Lemma skeys_ast indent col tr sep cs :
  flat_map (fun p => item_skey (fst p)) (ast_items indent col tr sep cs) = flat_map skey_c (ccontent cs).
Proof. induction cs as [|c r IH]; [reflexivity|]. cbn [ast_items flat_map ccontent map fst]. rewrite IH. destruct c; reflexivity. Qed.
Lemma nodup_fields_ast indent col tr sep cs : forall prev, wf_cs prev cs ->
  forallb (fun p => nodup_item (fst p)) (ast_items indent col tr sep cs) = true.
Proof.
  induction cs as [|c r IH]; intros prev W; [reflexivity|]. destruct W as (Wc & _ & Wr).
  cbn [ast_items forallb fst]. rewrite (IH _ Wr), andb_true_r. destruct c; try reflexivity.
  cbn [ast_item nodup_item]. rewrite field_names_ast. destruct Wc as (_ & _ & _ & _ & _ & H). exact H.
Qed.

Theorem nodup_ast_fmt f cs : wf_cs false cs ->
  NoDup (flat_map ekey_c (ccontent cs)) -> NoDup (flat_map skey_c (ccontent cs)) -> nodup_doc (ast_fmt f cs).
Proof.
  intros W E S. unfold nodup_doc, nodup_fields, nodup_fields_b, doc_ekeys, doc_skeys, ast_fmt, ast_of. cbn [d_items].
  rewrite ekeys_ast, skeys_ast. split; [exact (nodup_fields_ast _ _ _ _ cs false W)|]. split; assumption.
Qed.

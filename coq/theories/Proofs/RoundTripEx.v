(* C05, non-vacuity and necessity of the hypotheses (all by vm_compute on the executable models). *)
From Coq Require Import List NArith ZArith Bool Lia String.
From BP Require Import Base.Chars Model.Blocks Gen.Constants Model.Writer Model.Grammar Model.Pipeline Spec.C05
  Proofs.LibAddProofs Proofs.DupProofs Proofs.RoundTrip Proofs.RoundTrip2 Proofs.RoundTrip3.
Import ListNotations.

Definition qchars (s : str) (k : quoted) : quoted := fold_right QChar k s.
Definition B (s : string) : braced := chars (lit s) BNil.
Definition sp : str := lit " ".
Definition nl : str := [c_nl].
Definition mkf (name : string) (v : gvalue) (post : str) : gfield := mkgf sp (lit name) sp sp v post.

(* @string{s = {Foo}}  @comment{ hi }  free text  @Article {k1, a = {x {y} z}, b = "q{r}", c = s , d = {a} # "b" # s, n = 12 } *)
Definition ex_d : doc :=
  mkdoc nl
    [ (IString (lit "string") [] [] (lit "s") sp sp (gv1 (PBraced (B "Foo"))) [], nl);
      (IComment (lit "Comment") [] (B " hi "), nl);
      (IFree (lit "free text, with = and {"), nl ++ nl);
      (IPreamble (lit "preamble") sp (B "p q"), nl);
      (IEntry (lit "Article") sp [] (lit "k1") []
         (EComma (FCons (mkf "a" (gv1 (PBraced (chars (lit "x ") (BGroup (B "y") (B " z"))))) [])
                 (FCons (mkf "b" (gv1 (PQuoted (qchars (lit "q") (QGroup (qchars (lit "r") QNil) QNil)))) [])
                 (FCons (mkf "c" (gv1 (PBare (lit "s"))) sp)
                 (FCons (mkf "d" (mkgv (PBraced (B "a")) [(sp, sp, PQuoted (qchars (lit "b") QNil)); (sp, sp, PBare (lit "s"))]) [])
                 (FLast (mkf "n" (gv1 (PBare (lit "12"))) sp))))))), nl) ].
Definition ex_f : fmt := mkfmt (lit "  ") ColAuto (nl ++ lit " " ++ nl) true default_failed_comment.

Example ex_wf : wf_doc ex_d.
Proof. vm_compute. reflexivity. Qed.
Example ex_nodup : nodup_doc ex_d.
Proof. split; [vm_compute; reflexivity|]. split; apply has_dup_false_NoDup; vm_compute; reflexivity. Qed.
Example ex_fmt : wf_fmt ex_f.
Proof. split; repeat constructor. Qed.

(* the whole round trip on ex_d: content preserved, text a fixpoint, the resolved reference really is resolved *)
Example ex_roundtrip :
  match parse_default (render ex_d), roundtrip ex_f (render ex_d) with
  | PVal l1, PVal (t1, l2, t2) =>
      content l2 = content l1 /\ t2 = t1 /\ known_K7 l1 = false /\ List.length l1 = 5%nat
      /\ nth_error (content l1) 4 = Some (KEntry (lit "article") (lit "k1")
           [(lit "a", VStr (lit "x {y} z")); (lit "b", VStr (lit "q{r}")); (lit "c", VStr (lit "Foo"));
            (lit "d", VStr (lit "{a} # ""b"" # s")); (lit "n", VStr (lit "12"))])
  | _, _ => False
  end.
Proof. vm_compute. repeat split. Qed.

(* K7: the exclusion is needed.  @comment{a\ }  and  @a{k, x = ab\ }  are well-formed, yet the content changes *)
Definition bsl : str := [c_bs].
Definition k7_comment : doc := mkdoc [] [(IComment (lit "comment") [] (chars (lit "a" ++ bsl ++ sp) BNil), [])].
Definition k7_value : doc :=
  mkdoc [] [(IEntry (lit "a") [] [] (lit "k") [] (EComma (FLast (mkf "x" (gv1 (PBare (lit "ab" ++ bsl))) sp))), [])].

Definition changes (d : doc) : Prop :=
  wf_doc d /\ nodup_doc d /\
  match parse_default (render d) with
  | PVal l1 => known_K7 l1 = true /\
      match write_default default_fmt l1 with
      | PVal t1 => match parse_default t1 with PVal l2 => content l2 <> content l1 | _ => False end
      | _ => False
      end
  | _ => False
  end.
Ltac changes_tac :=
  split; [vm_compute; reflexivity|]; split;
  [split; [vm_compute; reflexivity|]; split; apply has_dup_false_NoDup; vm_compute; reflexivity|];
  vm_compute; split; [reflexivity | discriminate].
Example roundtrip_content_refuted_K7_comment : changes k7_comment.
Proof. changes_tac. Qed.
Example roundtrip_content_refuted_K7_value : changes k7_value.
Proof. changes_tac. Qed.
Example default_fmt_wf : wf_fmt default_fmt.
Proof. split; repeat constructor. Qed.

(* each hypothesis of write_default_content is needed *)
Definition fx : field := mkfield (lit "x") (VStr (lit "v")) None.
Definition h_raw (r : string) : hdr := mkhdr None (Some (lit r)) [].
(* a removed-enclosing metadata that is not a dict makes AddEnclosing raise, although reuse is off *)
Definition a_md : list block := [BEntry (mkhdr None None [(remove_enclosing_metadata_key, VStr (lit "{"))]) (lit "a") (lit "k") [fx]].
Definition a_md' : list block := [BEntry hdr0 (lit "a") (lit "k") [fx]].
Example content_md_needed :
  content a_md = content a_md' /\ wf_blocks a_md /\ no_failed a_md = true /\ md_ok a_md = false /\ md_ok a_md' = true
  /\ write_default default_fmt a_md = PRaise /\ write_default default_fmt a_md' <> PRaise.
Proof.
  repeat split; try (vm_compute; reflexivity); try (apply has_dup_false_NoDup; vm_compute; reflexivity).
  vm_compute. discriminate.
Qed.
(* duplicate keys: Library(blocks) wraps the second entry into a failed block, which is written from its raw text *)
Definition a_dup (r : string) : list block := [BEntry hdr0 (lit "a") (lit "k") []; BEntry (h_raw r) (lit "a") (lit "k") []].
Example content_wf_blocks_needed :
  content (a_dup "one") = content (a_dup "two") /\ no_failed (a_dup "one") = true
  /\ md_ok (a_dup "one") = true /\ md_ok (a_dup "two") = true
  /\ write_default default_fmt (a_dup "one") <> write_default default_fmt (a_dup "two").
Proof. repeat split; try (vm_compute; reflexivity). vm_compute. discriminate. Qed.
(* failed blocks are written from their raw text, which the content does not contain *)
Definition a_failed (r : string) : list block := [BFailed (h_raw r) (EAbort 0)].
Example content_no_failed_needed :
  content (a_failed "one") = content (a_failed "two") /\ wf_blocks (a_failed "one")
  /\ md_ok (a_failed "one") = true /\ md_ok (a_failed "two") = true
  /\ write_default default_fmt (a_failed "one") <> write_default default_fmt (a_failed "two").
Proof.
  repeat split; try (vm_compute; reflexivity); try (apply has_dup_false_NoDup; vm_compute; reflexivity).
  vm_compute. discriminate.
Qed.

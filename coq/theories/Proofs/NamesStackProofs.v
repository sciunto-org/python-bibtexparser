(* C14, middleware level: the round trip through the four name middlewares on an entry is, field by field, the
   function-level round trip  split -> parse -> merge -> join -> split -> parse. *)
From Coq Require Import List NArith ZArith Bool Lia.
From BP Require Import Base.Chars Model.Blocks Model.Names Spec.C14 Spec.C14Stack Proofs.NamesParseProofs.
Import ListNotations.

Definition nmap_fields (nf : list str) (g : value -> value) (fs : list field) : list field :=
  map (fun f => if mem_str (fkey f) nf then mkfield (fkey f) (g (fval f)) (fline f) else f) fs.

Definition named (nf : list str) (P : value -> Prop) (fs : list field) : Prop :=
  Forall (fun f => mem_str (fkey f) nf = true -> P (fval f)) fs.

Lemma named_impl nf (P Q : value -> Prop) fs : (forall v, P v -> Q v) -> named nf P fs -> named nf Q fs.
Proof. intros HPQ F. eapply Forall_impl; [|exact F]. intros f Hf Em. apply HPQ, Hf, Em. Qed.

Definition vid (v : value) : value := v.

Lemma nmap_fields_id nf fs : nmap_fields nf vid fs = fs.
Proof.
  induction fs as [|f r IH]; [reflexivity|]. cbn [nmap_fields map]. fold (nmap_fields nf vid r). rewrite IH.
  destruct (mem_str (fkey f) nf); [destruct f|]; reflexivity.
Qed.

(* one middleware pass over name fields that hold g-values of a base list fs: if it turns g-values into g'-values it
   turns the fields into the g'-fields of fs ... *)
Lemma tf_nmap nf mw g g' fs : named nf (fun v => transform_value mw (g v) = VOk (g' v)) fs ->
  transform_fields nf mw (nmap_fields nf g fs) = FOk (nmap_fields nf g' fs).
Proof.
  induction 1 as [|f r Hf F IH]; [reflexivity|].
  cbn [nmap_fields map]. fold (nmap_fields nf g r). fold (nmap_fields nf g' r).
  destruct (mem_str (fkey f) nf) eqn:Em.
  - cbn [transform_fields fkey fval fline]. rewrite Em, (Hf eq_refl), IH. reflexivity.
  - cbn [transform_fields]. rewrite Em, IH. reflexivity.
Qed.

(* ... and if it succeeds at all, on values satisfying P0, it does so in this way *)
Lemma tf_nmap_inv nf mw g g' (P0 P : value -> Prop) fs :
  (forall v v', P0 v -> transform_value mw (g v) = VOk v' -> P v /\ v' = g' v) -> named nf P0 fs ->
  forall fs', transform_fields nf mw (nmap_fields nf g fs) = FOk fs' -> fs' = nmap_fields nf g' fs /\ named nf P fs.
Proof.
  intros Hv. induction 1 as [|f r Hf F IH]; intros fs' H; [injection H as <-; split; constructor|].
  cbn [nmap_fields map] in *. fold (nmap_fields nf g r) in H. fold (nmap_fields nf g' r).
  destruct (mem_str (fkey f) nf) eqn:Em; cbn [transform_fields fkey fval fline] in H; rewrite Em in H.
  - destruct (transform_value mw (g (fval f))) as [v'| | |] eqn:Ev; try discriminate.
    destruct (transform_fields nf mw (nmap_fields nf g r)) as [r'| | |]; try discriminate.
    injection H as <-. destruct (Hv _ _ (Hf eq_refl) Ev) as [Pf ->]. destruct (IH r' eq_refl) as [-> Fr].
    split; [reflexivity | constructor; [intros _; exact Pf | exact Fr]].
  - destruct (transform_fields nf mw (nmap_fields nf g r)) as [r'| | |]; try discriminate.
    injection H as <-. destruct (IH r' eq_refl) as [-> Fr].
    split; [reflexivity | constructor; [intros X; rewrite Em in X; discriminate X | exact Fr]].
Qed.

Lemma name_entry_nmap nf mw g g' h t k fs : named nf (fun v => transform_value mw (g v) = VOk (g' v)) fs ->
  name_entry nf mw (BEntry h t k (nmap_fields nf g fs)) = NBVal (BEntry h t k (nmap_fields nf g' fs)).
Proof. intros F. cbn [name_entry]. rewrite (tf_nmap nf mw g g' fs F). reflexivity. Qed.

Lemma name_entry_nmap_inv nf mw g g' (P0 P : value -> Prop) h t k fs b' :
  (forall v v', P0 v -> transform_value mw (g v) = VOk v' -> P v /\ v' = g' v) -> named nf P0 fs ->
  name_entry nf mw (BEntry h t k (nmap_fields nf g fs)) = NBVal b' -> is_entry b' = true ->
  b' = BEntry h t k (nmap_fields nf g' fs) /\ named nf P fs.
Proof.
  intros Hv F H He. cbn [name_entry] in H.
  destruct (transform_fields nf mw (nmap_fields nf g fs)) as [fs'| |fs'|] eqn:E; try discriminate;
    injection H as <-; [|discriminate].
  destruct (tf_nmap_inv nf mw g g' P0 P fs Hv F fs' E) as [-> Fp]. split; [reflexivity | exact Fp].
Qed.

(* what SplitNameParts, MergeNameParts and MergeCoAuthors compute on lists of names *)
Lemma v_of_parts_inj p q : v_of_parts p = v_of_parts q -> p = q.
Proof. destruct p, q. unfold v_of_parts. cbn. intros H. injection H as -> -> -> ->. reflexivity. Qed.

Lemma parse_all_ok l ps : parse_all (map VStr l) = VOk (VList (map v_of_parts ps)) <-> map split1 l = map POk ps.
Proof.
  revert ps. induction l as [|n l IH]; intros ps; cbn [map parse_all]; split; intros H.
  - destruct ps; [reflexivity|]. inversion H.
  - destruct ps; [reflexivity|]. inversion H.
  - unfold split1 at 1. destruct (parse_name true n) as [p|e] eqn:E; [|discriminate].
    destruct (parse_all_strs l) as [(ps' & Ea & _)|(e & n' & Ea & _)]; rewrite Ea in H; [|discriminate].
    destruct ps as [|p0 ps]; [discriminate|]. cbn [map] in H.
    assert (Hp : v_of_parts p = v_of_parts p0) by congruence. apply v_of_parts_inj in Hp. subst p0.
    cbn [map]. f_equal. apply IH. rewrite Ea. congruence.
  - destruct ps as [|p ps]; [discriminate|]. cbn [map] in H. injection H as H1 H2.
    unfold split1 in H1. rewrite H1. apply IH in H2. rewrite H2. reflexivity.
Qed.

Lemma merge_all_parts ps : merge_all_chk (map v_of_parts ps) = true /\
  merge_all 0 (map v_of_parts ps) = VOk (VList (map VStr (map merge1 ps))).
Proof.
  induction ps as [|p ps [I1 I2]]; [split; reflexivity|]. cbn [map merge_all merge_all_chk v_of_parts].
  split; [exact I1|]. rewrite I2. destruct p; reflexivity.
Qed.

Lemma all_strs_map l : all_strs (map VStr l) = Some l.
Proof. induction l as [|x l IH]; [reflexivity|]. cbn [map all_strs]. rewrite IH. reflexivity. Qed.

Lemma parts_of_ok s ps : persons_of s = map POk ps -> parts_of s = ps.
Proof.
  unfold parts_of. intros ->. rewrite map_map. induction ps as [|p r IH]; [reflexivity|]. cbn [map]. rewrite IH. reflexivity.
Qed.

(* the values a name field takes along the way, as functions of the original value (a text): separated, parsed,
   merged person by person, joined *)
Definition gsep (v : value) : value := match v with VStr s => VList (map VStr (split_names s)) | _ => v end.
Definition gp (v : value) : value := match v with VStr s => VList (map v_of_parts (parts_of s)) | _ => v end.
Definition gmerged (v : value) : value := match v with VStr s => VList (map VStr (map merge1 (parts_of s))) | _ => v end.
Definition gw (v : value) : value := match v with VStr s => VStr (remerge s) | _ => v end.

Definition valid_names (s : str) : Prop := persons_of s = map POk (parts_of s).
Definition is_names (v : value) : Prop := exists s, v = VStr s /\ valid_names s.

Lemma sep_inv v v' : transform_value MwSeparate v = VOk v' -> (exists s, v = VStr s) /\ v' = gsep v.
Proof. destruct v; try discriminate. intros [= <-]. split; [eexists; reflexivity | reflexivity]. Qed.

Lemma split_value s : valid_names s -> transform_value MwSplitParts (gsep (VStr s)) = VOk (gp (VStr s)).
Proof. intros Hv. apply parse_all_ok. exact Hv. Qed.

Lemma split_inv s v' : transform_value MwSplitParts (gsep (VStr s)) = VOk v' -> is_names (VStr s) /\ v' = gp (VStr s).
Proof.
  cbn [gsep gp transform_value]. intros H.
  destruct (parse_all_strs (split_names s)) as [(ps & E & _)|(e & n & E & _)]; rewrite E in H; [|discriminate].
  injection H as <-. apply parse_all_ok in E. fold (persons_of s) in E.
  pose proof (parts_of_ok s ps E) as Ep.
  split; [exists s; split; [reflexivity | unfold valid_names; rewrite Ep; exact E] | rewrite Ep; reflexivity].
Qed.

Lemma merge_value s : transform_value (MwMergeParts 0) (gp (VStr s)) = VOk (gmerged (VStr s)).
Proof.
  cbn [gp gmerged transform_value]. destruct (merge_all_parts (parts_of s)) as [M1 M2].
  change (2 <=? 0)%N with false. cbv iota. rewrite M1. exact M2.
Qed.

Lemma join_value s : transform_value MwMergeCo (gmerged (VStr s)) = VOk (gw (VStr s)).
Proof. cbn [gmerged gw transform_value]. rewrite all_strs_map. reflexivity. Qed.

(* a successful SeparateCoAuthors ; SplitNameParts on an entry: its name fields held valid names *)
Lemma parse_side_entry_inv nf h t k fs b1 : name_stack nf parse_side (BEntry h t k fs) = NBVal b1 -> is_entry b1 = true ->
  named nf is_names fs /\ b1 = BEntry h t k (nmap_fields nf gp fs).
Proof.
  unfold name_stack, parse_side. cbn [fold_left]. intros H1 He1.
  destruct (name_entry nf MwSeparate (BEntry h t k fs)) as [ba| |] eqn:Ea; try discriminate.
  assert (Hea : is_entry ba = true).
  { destruct ba; try (rewrite name_entry_other in H1 by reflexivity; injection H1 as <-; discriminate). reflexivity. }
  rewrite <- (nmap_fields_id nf fs) in Ea.
  destruct (name_entry_nmap_inv nf MwSeparate vid gsep (fun _ => True) (fun v => exists s, v = VStr s) h t k fs ba) as [-> V1];
    try assumption; [intros v v' _; apply sep_inv | apply Forall_forall; intros; exact I|].
  destruct (name_entry_nmap_inv nf MwSplitParts gsep gp (fun v => exists s, v = VStr s) is_names h t k fs b1) as [-> V2];
    try assumption; [intros v v' (s & ->); apply split_inv|].
  split; [exact V2 | reflexivity].
Qed.

(* MergeNameParts("last") ; MergeCoAuthors on the result *)
Lemma write_side_entry nf h t k fs : named nf is_names fs ->
  name_stack nf write_side (BEntry h t k (nmap_fields nf gp fs)) = NBVal (BEntry h t k (nmap_fields nf gw fs)).
Proof.
  intros V. unfold name_stack, write_side. cbn [fold_left].
  rewrite (name_entry_nmap nf (MwMergeParts 0) gp gmerged) by (apply (named_impl nf is_names); [intros v (s & -> & _); apply merge_value | exact V]).
  apply name_entry_nmap. apply (named_impl nf is_names); [|exact V]. intros v (s & -> & _). apply join_value.
Qed.

Definition stack_field_law (s : str) : Prop :=
  forall ps, persons_of s = map POk ps -> persons_of (merge_names (map merge1 ps)) = map POk ps.

(* the stack-level inverse law follows from the list-level law of every name field: a successful parse side leaves
   valid names in the name fields, and each middleware acts on them as a function of the original text *)
Lemma stack_from_lists nf h t k fs :
  (forall f s, In f fs -> mem_str (fkey f) nf = true -> fval f = VStr s -> stack_field_law s) ->
  stack_inverse_at nf (BEntry h t k fs).
Proof.
  intros Hlaw b1 b2 H1 He1 H2. destruct (parse_side_entry_inv nf h t k fs b1 H1 He1) as [V ->].
  rewrite (write_side_entry nf h t k fs V) in H2. injection H2 as <-.
  unfold name_stack, parse_side. cbn [fold_left].
  rewrite (name_entry_nmap nf MwSeparate gw (fun v => gsep (gw v)))
    by (apply (named_impl nf is_names); [intros v (s & -> & _); reflexivity | exact V]).
  apply name_entry_nmap. apply Forall_forall. intros f Hin Em.
  unfold named in V. rewrite Forall_forall in V. destruct (V f Hin Em) as (s & E & Hv). rewrite E.
  apply parse_all_ok. exact (Hlaw f s Hin Em E _ Hv).
Qed.

(* The examples of Properties/C14.v and the witnesses of NamesPipelineProofs.v are checked by running the model.
   [stage x t] runs one stage t (a parse, a merge, a write) and names the value inside the result it returns (the b of
   NBVal b, the l of PVal l), so that the conjuncts after it mention the value by name.  [by_vm] proves a = b by
   evaluating both sides, as [vm_compute; reflexivity] does. *)
Ltac stage x t := let v := eval vm_compute in t in match v with _ ?r => pose (x := r) end.
Ltac by_vm := match goal with |- ?a = ?b => exact (@eq_refl _ b <: a = b) end.

(* the file layer in the other direction: a utf-8 file without a carriage-return byte that parse_file accepts is reproduced
   byte for byte when the text that was read is written again *)
From Coq Require Import List ZArith Bool.
Import ListNotations.
From BP Require Import Model.TextIO Proofs.TextIOProofs.
Local Open Scope Z_scope.

(* the same test as [no_cr], on bytes instead of code points *)
Definition no_cr_byte (bs : list Z) : bool := forallb (fun b => negb (b =? 13)) bs.

Lemma no_cr_of_no_cr_byte s bs : utf8_encode s = Some bs -> no_cr_byte bs = true -> no_cr s = true.
Proof.
  revert bs. induction s as [|c s IH]; intros bs H Hn; [reflexivity|].
  rewrite utf8_encode_with in H. apply encode_with_cons in H as (_ & b' & E & ->). rewrite <- utf8_encode_with in E.
  unfold no_cr_byte in Hn. rewrite forallb_app in Hn. apply andb_prop in Hn. destruct Hn as [H1 H2].
  cbn [no_cr forallb]. fold (no_cr s). rewrite (IH b' E H2), andb_true_r.
  (* a carriage return is encoded as the byte 13 *)
  destruct (Z.eqb_spec c 13) as [->|N]; [discriminate H1 | reflexivity].
Qed.

Theorem utf8_file_fixpoint bs s : no_cr_byte bs = true -> read_text Utf8 bs = Some s -> write_text Utf8 s = Some bs.
Proof.
  unfold read_text, write_text. cbn [decode encode]. intros Hn H.
  destruct (utf8_decode bs) as [s'|] eqn:D; [|discriminate]. cbn [option_map] in H. injection H as <-.
  pose proof (utf8_canonical bs s' D) as C.
  rewrite (nl_read_id s' (no_cr_of_no_cr_byte s' bs C Hn)). exact C.
Qed.

(* and therefore reading is injective on such files: two different CR-free utf-8 files are never read as the same text *)
Theorem utf8_read_injective b1 b2 s : no_cr_byte b1 = true -> no_cr_byte b2 = true ->
  read_text Utf8 b1 = Some s -> read_text Utf8 b2 = Some s -> b1 = b2.
Proof.
  intros N1 N2 H1 H2. apply utf8_file_fixpoint in H1; [|exact N1]. apply utf8_file_fixpoint in H2; [|exact N2]. congruence.
Qed.

(* with carriage returns it is not: CR LF, CR and LF files read as the same text *)
Theorem utf8_read_not_injective_with_cr : read_text Utf8 [97; 13; 10] = read_text Utf8 [97; 10] /\ read_text Utf8 [97; 13] = read_text Utf8 [97; 10].
Proof. split; reflexivity. Qed.

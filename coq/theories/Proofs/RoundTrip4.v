(* C05: the writer's output on a library of clean values is the rendering of a dialect document. *)
From Coq Require Import List NArith ZArith Bool Lia String.
From BP Require Import Base.Chars Model.Blocks Gen.Constants Model.Enclosing Model.Writer Model.Splitter
  Model.Grammar Model.Pipeline Spec.C05 Proofs.WriterProofs Proofs.RoundTrip Proofs.RoundTrip3.
Import ListNotations.

(* a library content whose texts are given as brace contents *)
Inductive citem :=
| CEntry (typ key : str) (fs : list (str * braced))
| CString (name : str) (b : braced)
| CPre (b : braced)
| CExpl (b : braced)
| CFree (t : str).

Definition cval (b : braced) : value := VStr (render_braced b).
Definition cc1 (c : citem) : bcontent :=
  match c with
  | CEntry t k fs => KEntry t k (map (fun p => (fst p, cval (snd p))) fs)
  | CString n b => KString n (cval b)
  | CPre b => KPreamble (render_braced b)
  | CExpl b => KExpl (render_braced b)
  | CFree t => KImpl t
  end.
Definition ccontent (cs : list citem) : list bcontent := map cc1 cs.

(* after AddEnclosing *)
Definition cval_enclosed (b : braced) : value := VStr (c_lb :: render_braced b ++ [c_rb]).
Definition cc1_enclosed (c : citem) : bcontent :=
  match c with
  | CEntry t k fs => KEntry t k (map (fun p => (fst p, cval_enclosed (snd p))) fs)
  | CString n b => KString n (cval_enclosed b)
  | _ => cc1 c
  end.

Lemma enc_fields_c fs : enc_fields (map (fun p : str * braced => (fst p, cval (snd p))) fs)
  = EVal (map (fun p => (fst p, cval_enclosed (snd p))) fs).
Proof. induction fs as [|p r IH]; [reflexivity|]. cbn [map enc_fields fst snd]. rewrite IH. reflexivity. Qed.

Lemma enc_ccontent cs : map_res enc_c1 (ccontent cs) = EVal (map cc1_enclosed cs).
Proof.
  induction cs as [|c r IH]; [reflexivity|]. cbn [ccontent map map_res]. fold (ccontent r). rewrite IH.
  destruct c; cbn [cc1 enc_c1 cc1_enclosed]; try reflexivity. rewrite enc_fields_c. reflexivity.
Qed.

Definition ast_field (indent : str) (col : nat) (p : str * braced) (post : str) : gfield :=
  mkgf (c_nl :: indent) (fst p) (pad col (fst p) ++ [c_sp]) [c_sp] (gv1 (PBraced (snd p))) post.
Fixpoint ast_fields (indent : str) (col : nat) (tr : bool) (fs : list (str * braced)) : gfields :=
  match fs with
  | [] => FEnd [c_nl]
  | p :: r =>
      match r with
      | [] => if tr then FCons (ast_field indent col p []) (FEnd [c_nl]) else FLast (ast_field indent col p [c_nl])
      | _ => FCons (ast_field indent col p []) (ast_fields indent col tr r)
      end
  end.
Definition ast_item (indent : str) (col : nat) (tr : bool) (c : citem) : item :=
  match c with
  | CEntry t k fs => IEntry t [] [] k [] (EComma (ast_fields indent col tr fs))
  | CString n b => IString s_string [] [] n [c_sp] [c_sp] (gv1 (PBraced b)) []
  | CPre b => IPreamble s_preamble [] b
  | CExpl b => IComment s_comment [] b
  | CFree t => IFree t
  end.
Fixpoint ast_items (indent : str) (col : nat) (tr : bool) (sep : str) (cs : list citem) : list (item * str) :=
  match cs with
  | [] => []
  | c :: r => (ast_item indent col tr c, c_nl :: match r with [] => [] | _ => sep end) :: ast_items indent col tr sep r
  end.
Definition ast_of (indent : str) (col : nat) (tr : bool) (sep : str) (cs : list citem) : doc :=
  mkdoc [] (ast_items indent col tr sep cs).

(* right-nests every ++ and lets it compute on the conses *)
Ltac norm_app := repeat (progress (rewrite <- ?app_assoc; cbn [app])).

Definition field_text (indent : str) (col : nat) (p : str * braced) : str :=
  indent ++ fst p ++ pad col (fst p) ++ val_sep ++ c_lb :: render_braced (snd p) ++ [c_rb].
Definition enclosed_field (p : str * braced) : field := cfield (fst p, cval_enclosed (snd p)).

Lemma field_pieces_text indent col tr last p :
  join_pieces (field_pieces indent col tr last (enclosed_field p))
  = Some (field_text indent col p ++ (if tr || negb last then [c_comma] else []) ++ [c_nl]).
Proof.
  unfold field_pieces, enclosed_field, cfield, field_text. cbn [fkey fval fst snd cval_enclosed piece_of_value app].
  destruct (tr || negb last); cbn [app join_pieces option_map]; rewrite ?app_nil_r; norm_app; reflexivity.
Qed.

Lemma render_ast_field indent col p post :
  render_field (ast_field indent col p post) = c_nl :: field_text indent col p ++ post.
Proof.
  unfold render_field, field_head, ast_field, field_text. cbn [g_pre g_name g_w1 g_w2 g_val g_post].
  rewrite (render_gv1 (PBraced (snd p))). cbn [render_piece app]. rewrite <- !app_assoc. cbn [app].
  change val_sep with [c_sp; c_eq; c_sp]. cbn [app]. rewrite <- !app_assoc. reflexivity.
Qed.

Definition isnil {A} (l : list A) : bool := match l with [] => true | _ => false end.
Fixpoint fields_text (indent : str) (col : nat) (tr : bool) (fs : list (str * braced)) : str :=
  match fs with
  | [] => []
  | p :: r => field_text indent col p ++ (if tr || negb (isnil r) then [c_comma] else []) ++ [c_nl] ++ fields_text indent col tr r
  end.

Lemma fields_pieces_text indent col tr fs :
  join_pieces (fields_pieces indent col tr (map enclosed_field fs)) = Some (fields_text indent col tr fs).
Proof.
  induction fs as [|p r IH]; [reflexivity|]. cbn [map fields_pieces fields_text].
  rewrite join_pieces_app, field_pieces_text, IH. cbn [option_map].
  replace (match map enclosed_field r with [] => true | _ :: _ => false end) with (isnil r) by (destruct r; reflexivity).
  rewrite <- !app_assoc. reflexivity.
Qed.

Lemma render_ast_fields indent col tr fs :
  render_fields (ast_fields indent col tr fs) = c_nl :: fields_text indent col tr fs ++ [c_rb].
Proof.
  induction fs as [|p r IH]; [reflexivity|]. cbn [ast_fields fields_text]. destruct r as [|p2 r].
  - cbn [isnil negb fields_text]. rewrite orb_false_r. destruct tr; cbn [render_fields]; rewrite render_ast_field.
    + rewrite app_nil_r. cbn [app]. rewrite <- !app_assoc. reflexivity.
    + cbn [app]. rewrite <- !app_assoc. reflexivity.
  - cbn [render_fields]. rewrite render_ast_field, IH, app_nil_r. cbn [isnil negb]. rewrite orb_true_r.
    cbn [app]. rewrite <- !app_assoc. reflexivity.
Qed.

Lemma treat_block_render indent col tr failed c :
  joined (treat_block indent col tr failed (canon1 (cc1_enclosed c))) = Some (render_item (ast_item indent col tr c) ++ [c_nl]).
Proof.
  destruct c as [t k fs|n b|b|b|t]; cbn [cc1_enclosed cc1 canon1 treat_block joined ast_item render_item render_body].
  - rewrite map_map. change (map (fun x : str * braced => cfield (fst x, cval_enclosed (snd x))) fs) with (map enclosed_field fs).
    cbn [app join_pieces option_map]. rewrite join_pieces_app, fields_pieces_text. cbn [join_pieces option_map].
    unfold entry_head. cbn [render_etail app]. rewrite render_ast_fields, app_nil_r. norm_app. reflexivity.
  - cbn [cval_enclosed piece_of_value join_pieces option_map]. rewrite (render_gv1 (PBraced b)), app_nil_r.
    cbn [render_piece]. norm_app. reflexivity.
  - cbn [join_pieces option_map]. rewrite app_nil_r. norm_app. reflexivity.
  - cbn [join_pieces option_map]. rewrite app_nil_r. norm_app. reflexivity.
  - cbn [join_pieces option_map]. rewrite app_nil_r. reflexivity.
Qed.

Lemma write_pieces_render indent col tr failed sep cs :
  exists ps, write_pieces indent col tr failed sep (canon (map cc1_enclosed cs)) = Writer.Val ps
    /\ join_pieces ps = Some (render_items (ast_items indent col tr sep cs)).
Proof.
  induction cs as [|c r IH]; [exists []; split; reflexivity|].
  destruct IH as (q & Hq & Jq). cbn [map canon write_pieces]. fold (canon (map cc1_enclosed r)).
  pose proof (treat_block_render indent col tr failed c) as T.
  destruct (treat_block indent col tr failed (canon1 (cc1_enclosed c))) as [p| |]; cbn [joined] in T; try discriminate.
  rewrite Hq. eexists. split; [reflexivity|]. rewrite !join_pieces_app, T.
  cbn [ast_items render_items]. destruct r as [|c2 r].
  - cbn [map canon join_pieces option_map]. cbn [write_pieces canon map] in Hq. inversion Hq; subst q.
    cbn [join_pieces ast_items render_items option_map]. norm_app. reflexivity.
  - cbn [map canon join_pieces]. rewrite Jq. cbn [option_map]. norm_app. reflexivity.
Qed.

Definition col_of (f : fmt) (cs : list citem) : nat := resolve_column f (canon (map cc1_enclosed cs)).
Definition ast_fmt (f : fmt) (cs : list citem) : doc :=
  ast_of (f_indent f) (col_of f cs) (f_trailing f) (f_sep f) cs.

Theorem cwrite_render f cs : cwrite_default f (ccontent cs) = PVal (render (ast_fmt f cs)).
Proof.
  unfold cwrite_default. rewrite enc_ccontent. unfold write.
  destruct (write_pieces_render (f_indent f) (col_of f cs) (f_trailing f) (f_failed f) (f_sep f) cs) as (ps & Hp & Jp).
  unfold col_of in Hp. rewrite Hp, Jp. reflexivity.
Qed.
Print Assumptions cwrite_render.

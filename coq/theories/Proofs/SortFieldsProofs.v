(* Proofs for C17: field sorting (alphabetical, custom), constructor check, key normalisation, frame, idempotence.

   Whatever calls str.lower (custom sort, its constructor, NormalizeFieldKeys) is proved over an ARBITRARY
   [lowerU : str -> str] (Model/SortFieldsGen.v, Model/FieldKeysGen.v, Spec/C17Gen.v).  The ASCII model and
   specification (Model/SortFields.v, Model/FieldKeys.v, Spec/C17.v) are the instance [lowerU := lower] by
   conversion, so a statement about them is the general one applied to [lower].
   What is assumed about [lowerU]:
     - custom sort (contract form, uniqueness, explicit form), constructor, normalisation (key order, last value,
       no value changed), frame, blockwise form, idempotence of the custom sort:      NOTHING;
     - "the normalised keys are lower-case" and idempotence of NormalizeFieldKeys:     lowerU (lowerU s) = lowerU s,
       and that hypothesis is NECESSARY for each of the two (normalize_idem_iff_g, keys_lower_iff_g).
   The hypothesis is always an explicit premise; there is no axiom. *)
From Coq Require Import List NArith ZArith Bool Arith Lia Permutation Sorted.
From BP Require Import Base.Chars Base.StableSort Model.Blocks Model.LibRebuild Model.SortFields Model.FieldKeys
  Model.SortFieldsGen Model.FieldKeysGen Spec.C17 Spec.C17Gen Proofs.LibRebuildProofs Proofs.Common.
Import ListNotations.

(* Spec/C17.v writes its notions out; they are those of Base/StableSort.v: [alpha_spec] is the stable-sort contract for
   [alpha_le] (which is [le_key fkey str_leb]), [position] and the model's [index_of] are [gpos] and [gindex] on str *)
Lemma alpha_spec_contract fs out : alpha_spec fs out <-> stable_sorted_perm alpha_le fs out.
Proof. reflexivity. Qed.
Lemma position_gpos k l : position k l = gpos str str_eqb k l.
Proof. reflexivity. Qed.
Lemma index_of_gindex k l : index_of k l = gindex str str_eqb k l.
Proof. reflexivity. Qed.

Lemma alpha_le_total f g : alpha_le f g = true \/ alpha_le g f = true.
Proof. apply str_leb_total. Qed.
Lemma alpha_le_trans f g h : alpha_le f g = true -> alpha_le g h = true -> alpha_le f h = true.
Proof. apply str_leb_trans. Qed.

Theorem sort_alpha_spec fs : alpha_spec fs (sort_alpha fs).
Proof. apply alpha_spec_contract. exact (isort_meets_contract _ alpha_le alpha_le_total alpha_le_trans fs). Qed.

Theorem alpha_spec_unique fs out : alpha_spec fs out -> out = sort_alpha fs.
Proof.
  intros H. apply alpha_spec_contract in H. exact (stable_sort_unique _ alpha_le alpha_le_total alpha_le_trans fs out H).
Qed.

Theorem position_meaning k ord :
  (In k ord -> nth_error ord (position k ord) = Some k /\ forall j, j < position k ord -> nth_error ord j <> Some k)
  /\ (~ In k ord <-> position k ord = length ord)
  /\ position k ord <= length ord.
Proof. rewrite position_gpos. exact (gpos_meaning str str_eqb str_eqb_eq k ord). Qed.

Lemma sort_alpha_idem fs : sort_alpha (sort_alpha fs) = sort_alpha fs.
Proof. exact (isort_idem _ alpha_le alpha_le_total alpha_le_trans fs). Qed.

Section ByPosition.
  Variables (A : Type) (key : A -> str).

  Definition pos_in (ord : list str) (x : A) : nat := position (key x) ord.
  Definition pos_sort (ord : list str) : list A -> list A := sort_by (pos_in ord) Nat.leb.
  Definition same_pos_as (ord : list str) (p x : A) : bool := Nat.eqb (pos_in ord p) (pos_in ord x).

  Let pos_total ord := le_key_total _ _ (pos_in ord) Nat.leb nat_leb_total.
  Let pos_trans ord := le_key_trans _ _ (pos_in ord) Nat.leb nat_leb_trans.

  (* <= and = on positions are the order and the ties that [pos_sort] sorts by *)
  Lemma sorted_pos_iff ord out :
    StronglySorted (leP (le_key (pos_in ord) Nat.leb)) out <-> StronglySorted (fun x y => pos_in ord x <= pos_in ord y) out.
  Proof. split; apply SS_impl; intros x y; apply Nat.leb_le. Qed.
  Lemma same_pos_tie ord p x : tie (pos_in ord) Nat.leb (pos_in ord p) x = same_pos_as ord p x.
  Proof. apply nat_tie. Qed.

  (* the contract of a stable sort, said with <= and = on positions *)
  Theorem pos_sort_contract ord l :
    Permutation (pos_sort ord l) l
    /\ StronglySorted (fun x y => pos_in ord x <= pos_in ord y) (pos_sort ord l)
    /\ forall p, filter (same_pos_as ord p) (pos_sort ord l) = filter (same_pos_as ord p) l.
  Proof.
    destruct (sort_by_contract _ _ (pos_in ord) Nat.leb nat_leb_total nat_leb_trans l) as (Hp & Hs & Hf).
    split; [exact Hp|]. split; [apply sorted_pos_iff, Hs|].
    intros p. rewrite <- !(filter_ext _ _ (same_pos_tie ord p)). apply Hf.
  Qed.

  Theorem pos_sort_unique ord l out :
    StronglySorted (fun x y => pos_in ord x <= pos_in ord y) out ->
    (forall p, filter (same_pos_as ord p) out = filter (same_pos_as ord p) l) ->
    out = pos_sort ord l.
  Proof.
    intros Hs Hf. apply (sort_by_unique _ _ (pos_in ord) Nat.leb nat_leb_total nat_leb_trans); [apply sorted_pos_iff, Hs|].
    intros p. rewrite !(filter_ext _ _ (same_pos_tie ord p)). apply Hf.
  Qed.

  Lemma pos_sort_idem ord l : pos_sort ord (pos_sort ord l) = pos_sort ord l.
  Proof. exact (isort_idem _ _ (pos_total ord) (pos_trans ord) l). Qed.

  (* without an order list every position is 0, so nothing moves *)
  Lemma pos_sort_nil l : pos_sort [] l = l.
  Proof.
    apply isort_sorted_id; [apply pos_total | apply pos_trans|].
    induction l as [|x l IHl]; constructor; [exact IHl|]. apply Forall_forall. intros y _. reflexivity.
  Qed.

  (* the elements with the first listed key are at position 0 and come first; among the others every position is one
     more than in the rest of the list *)
  Lemma pos_sort_cons k ord l :
    pos_sort (k :: ord) l
    = filter (fun x => str_eqb (key x) k) l ++ pos_sort ord (filter (fun x => negb (str_eqb (key x) k)) l).
  Proof.
    unfold pos_sort, sort_by. rewrite (isort_partition _ _ (fun x => str_eqb (key x) k)).
    - f_equal. apply isort_ext_In. intros x y Hx Hy.
      apply filter_In in Hx as [_ Hx], Hy as [_ Hy]. apply negb_true_iff in Hx, Hy.
      unfold le_key, pos_in. cbn [position]. rewrite Hx, Hy. reflexivity.
    - intros x y Hx. unfold le_key, pos_in. cbn [position]. rewrite Hx. reflexivity.
    - intros x y Hx Hy. unfold le_key, pos_in. cbn [position]. rewrite Hx, Hy. reflexivity.
  Qed.

  (* explicit form: for each listed key in listed order the elements carrying it, in source order; then the elements
     whose key is not listed, in source order *)
  Theorem pos_sort_explicit ord : NoDup ord -> forall l,
    pos_sort ord l = flat_map (fun k => filter (fun x => str_eqb (key x) k) l) ord
                     ++ filter (fun x => negb (mem_str (key x) ord)) l.
  Proof.
    induction 1 as [|k ord Hk Hnd IH]; intros l.
    - cbn [flat_map app]. rewrite filter_all by reflexivity. apply pos_sort_nil.
    - rewrite pos_sort_cons, IH. cbn [flat_map]. rewrite <- app_assoc. f_equal. f_equal.
      + (* the other listed keys lose nothing when the elements with key k are taken out, since k is not among them *)
        rewrite !flat_map_concat_map. f_equal. apply map_ext_in. intros k' Hk'.
        rewrite filter_filter_and. apply filter_ext. intros x.
        destruct (str_eqb (key x) k') eqn:E1; [|reflexivity]. apply str_eqb_eq in E1.
        assert (E2 : str_eqb (key x) k = false).
        { apply str_eqb_neq. intros E. apply Hk. rewrite <- E, E1. exact Hk'. }
        rewrite E2. reflexivity.
      + rewrite filter_filter_and. apply filter_ext. intros x.
        cbn [mem_str]. rewrite negb_orb, andb_comm. reflexivity.
  Qed.
End ByPosition.

Lemma has_dup_false l : has_dup l = false <-> NoDup l.
Proof.
  induction l as [|x r IH]; cbn [has_dup]; [split; [constructor | reflexivity]|]. split.
  - intros H. apply orb_false_iff in H as [H1 H2]. constructor; [apply mem_str_false, H1 | apply IH, H2].
  - intros H. inversion H; subst. apply orb_false_iff. split; [apply mem_str_false | apply IH]; assumption.
Qed.

Lemma mem_str_snoc x ks k : mem_str x (ks ++ [k]) = mem_str x ks || str_eqb x k.
Proof.
  induction ks as [|y ks IH]; cbn [app mem_str]; [apply orb_false_r|]. rewrite IH, orb_assoc. reflexivity.
Qed.

Lemma keep_first_nodup l : NoDup (keep_first l).
Proof.
  induction l as [|k r IH]; [constructor|]. cbn [keep_first]. constructor.
  - intros Hin. apply filter_In in Hin as [_ Hin]. rewrite str_eqb_refl in Hin. discriminate.
  - apply NoDup_filter. exact IH.
Qed.

Lemma keep_first_In x l : In x (keep_first l) <-> In x l.
Proof.
  induction l as [|k r IH]; [tauto|]. cbn [keep_first In]. split.
  - intros [H|H]; [left; exact H|]. apply filter_In in H as [H _]. right. apply IH, H.
  - intros [H|H]; [left; exact H|]. destruct (str_eqb x k) eqn:E; [left; apply str_eqb_eq in E; congruence|].
    right. apply filter_In. split; [apply IH, H | rewrite E; reflexivity].
Qed.

Lemma on_entry_frame g s mk :
  (forall h, sl (g h) = sl h /\ raw (g h) = raw h /\ meta_frame mk (meta h) (meta (g h))) ->
  forall b, block_frame mk b (on_entry g s b).
Proof.
  intros Hg b. destruct b; cbn [block_frame on_entry]; try reflexivity.
  destruct (Hg h) as (H1 & H2 & H3). eexists _, _. split; [reflexivity|]. auto.
Qed.

Lemma set_meta_only_key h k v :
  sl (set_meta h k v) = sl h /\ raw (set_meta h k v) = raw h /\ meta_frame (Some k) (meta h) (meta (set_meta h k v)).
Proof.
  split; [reflexivity|]. split; [reflexivity|]. cbn [meta_frame set_meta meta]. intros k' Hk.
  apply dict_get_set_other. exact Hk.
Qed.

Lemma set_meta_idem h k v : set_meta (set_meta h k v) k v = set_meta h k v.
Proof. unfold set_meta. cbn [sl raw meta]. rewrite dict_set_idem. reflexivity. Qed.

Lemma on_entry_idem g s : (forall h, g (g h) = g h) -> (forall fs, s (s fs) = s fs) ->
  forall b, on_entry g s (on_entry g s b) = on_entry g s b.
Proof. intros Hg Hs b. destruct b; cbn [on_entry]; try reflexivity. rewrite Hg, Hs. reflexivity. Qed.

Lemma on_entry_keys g s bs :
  entry_keys (map (on_entry g s) bs) = entry_keys bs /\ string_keys (map (on_entry g s) bs) = string_keys bs.
Proof.
  unfold entry_keys, string_keys. rewrite !flat_map_concat_map, !map_map.
  split; f_equal; apply map_ext; intros b; destruct b; reflexivity.
Qed.

Theorem block_mw_ok g s bs : lib_ok bs -> block_mw (on_entry g s) bs = map (on_entry g s) bs.
Proof.
  intros [He Hs]. unfold block_mw. apply rebuild_ok. destruct (on_entry_keys g s bs) as [H1 H2].
  split; [rewrite H1 | rewrite H2]; assumption.
Qed.

Theorem block_mw_frame g s mk bs : lib_ok bs -> (forall b, block_frame mk b (on_entry g s b)) ->
  lib_frame mk bs (block_mw (on_entry g s) bs).
Proof.
  intros Hok Hf. rewrite block_mw_ok by exact Hok. unfold lib_frame.
  clear Hok. induction bs as [|b r IH]; cbn [map]; constructor; [apply Hf | exact IH].
Qed.

Theorem block_mw_idem g s bs : (forall b, on_entry g s (on_entry g s b) = on_entry g s b) ->
  block_mw (on_entry g s) (block_mw (on_entry g s) bs) = block_mw (on_entry g s) bs.
Proof.
  intros Hid. unfold block_mw.
  (* the blocks of the first result are fixed by the middleware *)
  assert (H : Forall (fun b => on_entry g s b = b) (rebuild (map (on_entry g s) bs))).
  { apply rebuild_from_fixed.
    - intros b Hb. destruct b; try reflexivity. discriminate.
    - apply Forall_forall. intros b Hb. apply in_map_iff in Hb as (b0 & <- & _). apply Hid. }
  rewrite (map_ext_in _ (fun b => b) _ (proj1 (Forall_forall _ _) H)), map_id. apply rebuild_idem.
Qed.

Lemma alpha_block_frame b : block_frame (Some alpha_meta_key) b (alpha_block b).
Proof. apply on_entry_frame. intros h. apply set_meta_only_key. Qed.
Lemma alpha_block_idem b : alpha_block (alpha_block b) = alpha_block b.
Proof. apply on_entry_idem; [intros; apply set_meta_idem | apply sort_alpha_idem]. Qed.

Section AnyLower.
  Variable lowerU : str -> str.

  Notation folded_g := (folded_gen lowerU).
  Notation sort_custom_g := (sort_custom_gen lowerU).
  Notation custom_ctor_g := (custom_ctor_gen lowerU).
  Notation custom_block_g := (custom_block_gen lowerU).
  Notation custom_spec_g := (custom_spec_gen lowerU).
  Notation custom_explicit_g := (custom_explicit_gen lowerU).
  Notation lkey_g := (lkey_gen lowerU).
  Notation last_with_g := (last_with_gen lowerU).
  Notation lowered_g := (lowered_gen lowerU).
  Notation norm_loop_g := (norm_loop_gen lowerU).
  Notation normalize_fields_g := (normalize_fields_gen lowerU).
  Notation normalize_block_g := (normalize_block_gen lowerU).
  Notation keys_lower_g := (keys_lower_gen lowerU).

  Lemma custom_rank_pos_g cs ord f : custom_rank_gen lowerU cs ord f = field_pos_gen lowerU cs ord f.
  Proof. unfold custom_rank_gen, field_pos_gen. rewrite index_of_gindex, position_gpos. apply gindex_pos. Qed.

  (* the model and the specification each have a name for the folded key, and Spec/C17Gen.v writes the contract of
     sorting by position out *)
  Lemma fold_key_folded : fold_key_gen lowerU = folded_g.
  Proof. reflexivity. Qed.
  Lemma custom_spec_by_pos cs ord fs out :
    custom_spec_g cs ord fs out
    <-> Permutation out fs
        /\ StronglySorted (fun x y => pos_in _ (fun f => folded_g cs (fkey f)) ord x <= pos_in _ (fun f => folded_g cs (fkey f)) ord y) out
        /\ forall p, filter (same_pos_as _ (fun f => folded_g cs (fkey f)) ord p) out
                     = filter (same_pos_as _ (fun f => folded_g cs (fkey f)) ord p) fs.
  Proof. reflexivity. Qed.

  (* the model sorts by [index_of]; that is sorting by [position] of the folded key *)
  Lemma sort_custom_by_pos cs ord fs : sort_custom_g cs ord fs = pos_sort _ (fun f => folded_g cs (fkey f)) ord fs.
  Proof.
    apply isort_ext_In. intros f g _ _. unfold custom_le_gen, le_key. rewrite !custom_rank_pos_g. reflexivity.
  Qed.

  Theorem sort_custom_spec_g cs ord fs : custom_spec_g cs ord fs (sort_custom_g cs ord fs).
  Proof. apply custom_spec_by_pos. rewrite sort_custom_by_pos. apply pos_sort_contract. Qed.

  Theorem custom_spec_unique_g cs ord fs out : custom_spec_g cs ord fs out -> out = sort_custom_g cs ord fs.
  Proof.
    intros H. apply custom_spec_by_pos in H. destruct H as (_ & Hs & Hf).
    rewrite sort_custom_by_pos. exact (pos_sort_unique _ _ ord fs out Hs Hf).
  Qed.

  Lemma sort_custom_idem_g cs ord fs : sort_custom_g cs ord (sort_custom_g cs ord fs) = sort_custom_g cs ord fs.
  Proof. rewrite !sort_custom_by_pos. apply pos_sort_idem. Qed.

  Theorem sort_custom_explicit_g cs ord fs : NoDup ord -> sort_custom_g cs ord fs = custom_explicit_g cs ord fs.
  Proof. intros Hnd. rewrite sort_custom_by_pos. exact (pos_sort_explicit _ _ ord Hnd fs). Qed.

  Theorem custom_ctor_ok_g cs order ord :
    custom_ctor_g cs order = Some ord -> ord = map (folded_g cs) order /\ NoDup ord.
  Proof.
    unfold custom_ctor_gen. rewrite fold_key_folded.
    destruct (has_dup (map (folded_g cs) order)) eqn:E; intros H; [discriminate|].
    injection H as H. subst ord. split; [reflexivity | apply has_dup_false; exact E].
  Qed.

  Theorem custom_ctor_error_g cs order : custom_ctor_g cs order = None <-> ~ NoDup (map (folded_g cs) order).
  Proof.
    rewrite <- has_dup_false. unfold custom_ctor_gen. rewrite fold_key_folded.
    destruct (has_dup (map (folded_g cs) order)); split; congruence.
  Qed.

  Theorem custom_explicit_after_ctor_g cs order ord fs :
    custom_ctor_g cs order = Some ord -> sort_custom_g cs ord fs = custom_explicit_g cs ord fs.
  Proof. intros H. apply sort_custom_explicit_g. apply (custom_ctor_ok_g _ _ _ H). Qed.

  Lemma norm_loop_keys_g fs : forall d,
    map fst (norm_loop_g d fs)
    = map fst d ++ filter (fun x => negb (mem_str x (map fst d))) (keep_first (map lkey_g fs)).
  Proof.
    induction fs as [|f r IH]; intros d.
    - cbn. rewrite app_nil_r. reflexivity.
    - cbn [norm_loop_gen map keep_first filter]. rewrite IH, dict_keys_set. fold (lkey_g f).
      destruct (mem_str (lkey_g f) (map fst d)) eqn:E; cbn [negb].
      + f_equal. rewrite filter_filter_and. apply filter_ext. intros x.
        destruct (mem_str x (map fst d)) eqn:Ex; cbn [negb andb]; [reflexivity|].
        destruct (str_eqb x (lkey_g f)) eqn:Exk; [|reflexivity]. apply str_eqb_eq in Exk. subst x. congruence.
      + rewrite <- app_assoc. cbn [app]. f_equal. f_equal.
        rewrite filter_filter_and. apply filter_ext. intros x. rewrite mem_str_snoc, negb_orb. reflexivity.
  Qed.

  Lemma norm_loop_get_g fs : forall d k,
    dict_get (norm_loop_g d fs) k = match last_with_g k fs with Some g => Some (lowered_g g) | None => dict_get d k end.
  Proof.
    induction fs as [|f r IH]; intros d k; [reflexivity|]. cbn [norm_loop_gen last_with_gen].
    rewrite IH. destruct (last_with_g k r); [reflexivity|].
    rewrite dict_get_set. unfold lkey_gen. rewrite (str_eqb_sym k). destruct (str_eqb (lowerU (fkey f)) k); reflexivity.
  Qed.

  Lemma norm_loop_nodup_g fs : forall d, NoDup (map fst d) -> NoDup (map fst (norm_loop_g d fs)).
  Proof.
    induction fs as [|f r IH]; intros d H; [exact H|]. cbn [norm_loop_gen]. apply IH. apply dict_keys_set_nodup. exact H.
  Qed.

  Lemma last_with_In_g k fs g : last_with_g k fs = Some g -> In g fs /\ lkey_g g = k.
  Proof.
    induction fs as [|f r IH]; [discriminate|]. cbn [last_with_gen]. destruct (last_with_g k r) as [g'|].
    - intros H. injection H as ->. destruct (IH eq_refl) as [H1 H2]. split; [right; exact H1 | exact H2].
    - destruct (str_eqb (lkey_g f) k) eqn:E; [|discriminate]. intros H. injection H as ->.
      apply str_eqb_eq in E. split; [left; reflexivity | exact E].
  Qed.

  Lemma norm_loop_entries_g fs k v : In (k, v) (norm_loop_g [] fs) ->
    exists g, last_with_g k fs = Some g /\ v = lowered_g g /\ In g fs /\ lkey_g g = k.
  Proof.
    intros Hin. pose proof (dict_get_In _ _ _ (norm_loop_nodup_g fs [] (NoDup_nil _)) Hin) as Hg.
    rewrite norm_loop_get_g in Hg. cbn [dict_get] in Hg.
    destruct (last_with_g k fs) as [g|] eqn:El; [|discriminate]. injection Hg as <-.
    exists g. destruct (last_with_In_g _ _ _ El). auto.
  Qed.

  Lemma normalize_keys_g fs : map fkey (normalize_fields_g fs) = keep_first (map lkey_g fs).
  Proof.
    transitivity (map fst (norm_loop_g [] fs)).
    - unfold normalize_fields_gen. rewrite map_map. apply map_ext_in. intros [k v] Hin.
      destruct (norm_loop_entries_g _ _ _ Hin) as (g & _ & -> & _ & Hk). exact Hk.
    - rewrite norm_loop_keys_g. cbn [map app]. apply filter_all. reflexivity.
  Qed.

  Lemma normalize_values_g fs o : In o (normalize_fields_g fs) ->
    exists g, last_with_g (fkey o) fs = Some g /\ o = lowered_g g /\ In g fs.
  Proof.
    intros Ho. apply in_map_iff in Ho as ([k v] & <- & Hin).
    destruct (norm_loop_entries_g _ _ _ Hin) as (g & Hl & -> & Hg & <-). exists g. auto.
  Qed.

  Theorem normalize_fields_spec_g fs : normalize_spec_gen lowerU fs (normalize_fields_g fs).
  Proof.
    pose proof (normalize_keys_g fs) as Hk.
    unfold normalize_spec_gen. split; [exact Hk|]. split; [rewrite Hk; apply keep_first_nodup|].
    intros o Ho. destruct (normalize_values_g fs o Ho) as (g & Hl & -> & Hin). exists g. auto.
  Qed.

  Theorem normalize_keys_lower_g : lower_idempotent lowerU -> forall fs, keys_lower_g (normalize_fields_g fs).
  Proof.
    intros Hid fs. apply Forall_forall. intros o Ho. destruct (normalize_values_g fs o Ho) as (g & _ & -> & _).
    cbn [lowered_gen fkey]. apply Hid.
  Qed.

  Lemma norm_loop_fresh_g l : forall d,
    NoDup (map fkey l) -> Forall (fun f => lowerU (fkey f) = fkey f) l -> (forall f, In f l -> ~ In (fkey f) (map fst d)) ->
    norm_loop_g d l = d ++ map (fun f => (fkey f, f)) l.
  Proof.
    induction l as [|f r IH]; intros d Hnd Hlow Hdis; [cbn; rewrite app_nil_r; reflexivity|].
    cbn [norm_loop_gen map]. inversion Hnd as [|? ? Hf Hnd']; subst. inversion Hlow as [|? ? Hlf Hlow']; subst.
    assert (El : lowered_g f = f) by (destruct f as [k v ln]; unfold lowered_gen; cbn in *; rewrite Hlf; reflexivity).
    rewrite Hlf, El. rewrite dict_set_new by (apply Hdis; left; reflexivity).
    rewrite IH; [rewrite <- app_assoc; reflexivity | exact Hnd' | exact Hlow' |].
    intros g Hg. rewrite map_app, in_app_iff. cbn [map fst In]. intros [H|[H|[]]].
    - eapply Hdis; [right; exact Hg | exact H].
    - apply Hf. rewrite H. apply in_map. exact Hg.
  Qed.

  Theorem normalize_fields_idem_g : lower_idempotent lowerU ->
    forall fs, normalize_fields_g (normalize_fields_g fs) = normalize_fields_g fs.
  Proof.
    intros Hid fs. destruct (normalize_fields_spec_g fs) as (_ & Hnd & _).
    pose proof (normalize_keys_lower_g Hid fs) as Hlow.
    unfold normalize_fields_gen at 1. rewrite norm_loop_fresh_g; try assumption; [|intros f _ []].
    cbn [app]. rewrite map_map. cbn [snd]. apply map_id.
  Qed.

  (* the hypothesis is necessary: a one-field entry already shows it *)
  Lemma normalize_single_g k v ln : normalize_fields_g [mkfield k v ln] = [mkfield (lowerU k) v ln].
  Proof. reflexivity. Qed.

  Theorem normalize_idem_iff_g :
    (forall fs, normalize_fields_g (normalize_fields_g fs) = normalize_fields_g fs) <-> lower_idempotent lowerU.
  Proof.
    split; [|apply normalize_fields_idem_g].
    intros H s. specialize (H [mkfield s (VInt 0) None]). rewrite !normalize_single_g in H.
    injection H as H. exact H.
  Qed.

  Theorem keys_lower_iff_g : (forall fs, keys_lower_g (normalize_fields_g fs)) <-> lower_idempotent lowerU.
  Proof.
    split; [|apply normalize_keys_lower_g].
    intros H s. specialize (H [mkfield s (VInt 0) None]). rewrite normalize_single_g in H.
    inversion H as [|? ? H1 _]; subst. exact H1.
  Qed.

  Lemma custom_block_frame_g cs tup ord b : block_frame (Some custom_meta_key) b (custom_block_g cs tup ord b).
  Proof. apply on_entry_frame. intros h. apply set_meta_only_key. Qed.
  Lemma normalize_block_frame_g b : block_frame None b (normalize_block_g b).
  Proof. apply on_entry_frame. intros h. cbn. auto. Qed.

  Lemma custom_block_idem_g cs tup ord b :
    custom_block_g cs tup ord (custom_block_g cs tup ord b) = custom_block_g cs tup ord b.
  Proof. apply on_entry_idem; [intros; apply set_meta_idem | apply sort_custom_idem_g]. Qed.
  Lemma normalize_block_idem_g : lower_idempotent lowerU ->
    forall b, normalize_block_g (normalize_block_g b) = normalize_block_g b.
  Proof. intros Hid. apply on_entry_idem; [reflexivity | apply normalize_fields_idem_g; exact Hid]. Qed.
End AnyLower.

(* Spec/C17.v puts "the keys are lower-case" inside [normalize_spec] and leaves out what follows from the rest *)
Lemma normalize_spec_ascii fs out :
  normalize_spec_gen lower fs out /\ keys_lower_gen lower out <-> normalize_spec fs out.
Proof.
  unfold normalize_spec_gen, keys_lower_gen, normalize_spec.
  change (lkey_gen lower) with lkey. change (last_with_gen lower) with last_with. split.
  - intros ((H1 & H2 & H3) & H4). split; [exact H1|]. split; [exact H2|]. split; [exact H4|].
    intros o Ho. destruct (H3 o Ho) as (g & G1 & G2 & _ & G4 & G5). exists g. auto.
  - intros (H1 & H2 & H3 & H4). split; [|exact H3]. split; [exact H1|]. split; [exact H2|].
    intros o Ho. destruct (H4 o Ho) as (g & G1 & G2 & G4 & G5). exists g.
    destruct (last_with_In_g lower _ _ _ G1) as [_ Hk]. symmetry in Hk. auto.
Qed.

Theorem normalize_fields_spec fs : normalize_spec fs (normalize_fields fs).
Proof.
  apply normalize_spec_ascii. split; [apply (normalize_fields_spec_g lower) | apply (normalize_keys_lower_g lower lower_idem)].
Qed.

Definition mw_alpha : list block -> list block := block_mw alpha_block.
Definition mw_custom (cs tup : bool) (ord : list str) : list block -> list block := block_mw (custom_block cs tup ord).
Definition mw_normalize : list block -> list block := block_mw normalize_block.

Theorem entry_fields_all h t k fs :
  (exists h', alpha_block (BEntry h t k fs) = BEntry h' t k (sort_alpha fs))
  /\ (forall cs tup ord, exists h', custom_block cs tup ord (BEntry h t k fs) = BEntry h' t k (sort_custom cs ord fs))
  /\ normalize_block (BEntry h t k fs) = BEntry h t k (normalize_fields fs).
Proof. split; [|split]; [eexists; reflexivity | intros; eexists; reflexivity | reflexivity]. Qed.

(* C07 - every shipped middleware body stays within its footprint (Model/HeapBodies.v), for EVERY table. *)
From Coq Require Import List ZArith Bool.
From BP Require Import Model.Heap Model.HeapMw Model.HeapBodies Spec.C07 Proofs.HeapProofs.
Import ListNotations.

Lemma get_list_reg : forall h b hc o l, fp_inv h b hc -> regr h b hc o -> get_list hc o = Some l -> forall v, In v l -> regv h b hc v.
Proof. intros h b hc o l I [_ R]. exact (closed_get_list (rinv_closed I) R). Qed.
Lemma aget_rega : forall h b hc d k v, rega h b hc d -> aget d k = Some v -> regv h b hc v.
Proof. intros h b hc d k v. exact alla_aget. Qed.

(* The pieces of the bodies keep the invariant of ANY region Rg; the bodies below use them at Rg = reach h b
   (see the comment at rgn in HeapProofs.v). *)
Lemma alloc_atoms_fp {Rg h hc l h1 n} : rinv Rg h hc -> alloc_atoms hc l = (h1, n) -> rext Rg h hc h1 /\ robj Rg h h1 n.
Proof.
  intros I A. apply (alloc_rext I A), allo_list. intros v Iv. apply in_map_iff in Iv. destruct Iv as [a [<- _]]. apply allv_atom.
Qed.

(* entry_fields is  do fl <- attr_list h b A_fields; as_refs (snd fl) *)
Lemma entry_fields_region {h b hc fs} : fp_inv h b hc -> entry_fields hc b = Some fs -> forall f, In f fs -> region h b f.
Proof. intros I E f If. exact (proj2 (closed_attr_refs (rinv_closed I) (region_self h b) E f If)). Qed.

Lemma meta_set_fp {Rg h hc o k v h1} : rinv Rg h hc -> rgn Rg h o -> allv (robj Rg h hc) v ->
  meta_set hc o k v = Some h1 -> rext Rg h hc h1.
Proof.
  intros I R Gv E. unfold meta_set in E. bindn E mdv E0. bindn E md E1. bindn E d E2. inversion E; subst; clear E.
  pose proof (rinv_closed I) as C. pose proof (as_ref_all (closed_getattr C R E0) E1) as Rm.
  apply set_rext; [exact I | apply Rm|]. apply allo_dict, alla_aset; [exact (closed_get_dict C (proj2 Rm) E2) | exact Gv].
Qed.

Lemma error_block_fp {Rg h hc o h2 eb} : rinv Rg h hc -> robj Rg h hc o -> error_block hc o = Some (h2, eb) ->
  rext Rg h hc h2 /\ robj Rg h h2 eb.
Proof.
  intros I R E. unfold error_block in E. bindn E sl Es. bindn E raw Er.
  destruct (alloc hc (ODict [])) as [h1 md] eqn:A1. destruct (alloc h1 _) as [h3 e3] eqn:A2. inversion E; subst; clear E.
  pose proof (rinv_closed I) as C.
  exact (alloc_block_rext I (closed_getattr C (proj2 R) Es) (closed_getattr C (proj2 R) Er)
           (alla_cons allv_atom (alla_cons (proj1 allv_ref R) alla_nil)) A1 A2).
Qed.

Lemma floop_fp : forall A (Q : heap -> A -> Prop) Rg h (step : heap -> A -> nat -> option (heap * A)),
  (forall hc a f h1 a1, rinv Rg h hc -> rgn Rg h f -> Q hc a -> step hc a f = Some (h1, a1) -> rinv Rg h h1 /\ Q h1 a1) ->
  forall fs hc a h1 a1, rinv Rg h hc -> (forall f, In f fs -> rgn Rg h f) -> Q hc a ->
  floop step hc a fs = Some (h1, a1) -> rinv Rg h h1 /\ Q h1 a1.
Proof.
  intros A Q Rg h step S fs. induction fs as [|f r IH]; simpl; intros hc a h1 a1 I R Qa E.
  - inversion E; subst. auto.
  - bindn E x E0. destruct x as [h2 a2]. simpl in E.
    destruct (S hc a f h2 a2 I (R f (or_introl eq_refl)) Qa E0) as [I2 Q2]. apply (IH h2 a2); auto.
Qed.

Lemma floop_fp0 : forall A Rg h (step : heap -> A -> nat -> option (heap * A)),
  (forall hc a f h1 a1, rinv Rg h hc -> rgn Rg h f -> step hc a f = Some (h1, a1) -> rinv Rg h h1) ->
  forall fs hc a h1 a1, rinv Rg h hc -> (forall f, In f fs -> rgn Rg h f) ->
  floop step hc a fs = Some (h1, a1) -> rinv Rg h h1.
Proof.
  intros A Rg h step S fs hc a h1 a1 I R E.
  apply (floop_fp A (fun _ _ => True) Rg h step) with (fs := fs) (hc := hc) (a := a) (a1 := a1); auto.
  intros. split; eauto.
Qed.

Lemma fp_dispatch : forall fe fs, fp_fun fe -> fp_fun fs -> footprint_ok (dispatch fe fs).
Proof. intros fe fs Fe Fs. exact (fp_fun_ok _ (fp_fun_if is_entry _ _ Fe (fp_fun_if is_string _ _ Fs fp_keep))). Qed.

(* return MiddlewareErrorBlock(block, e) if an error was met, else the block: the tail that Model/HeapBodies.v writes out
   in names_entry, latex_entry and latex_string (it has no name there, so the statement repeats its text) *)
Lemma fp_or_error {h b h1 h' res} (failed : bool) : In b (dom h) -> fp_inv h b h1 ->
  (if failed then do e <- error_block h1 b; Some (fst e, ROne (snd e)) else Some (h1, ROne b)) = Some (h', res) ->
  fp_inv h b h' /\ forall r, In r (result_blocks res) -> regr h b h' r.
Proof.
  intros B I E. destruct failed.
  - bindn E e Ee. destruct e as [h2 eb]. inversion E; subst; clear E.
    destruct (error_block_fp I (regr_self I B) Ee) as [X Re]. split; [apply X|]. intros r [<-|[]]. exact Re.
  - inversion E; subst. exact (ret_self I B).
Qed.

Lemma rm_step_fp tbl Rg h : forall hc d f h1 d1, rinv Rg h hc -> rgn Rg h f -> alla (robj Rg h hc) d ->
  rm_step tbl hc d f = Some (h1, d1) -> rinv Rg h h1 /\ alla (robj Rg h h1) d1.
Proof.
  intros hc d f h1 d1 I R Q E. unfold rm_step in E.
  bindn E v Ev. bindn E a Ea. bindn E se Es. bindn E h2 Eh. bindn E kv Ek. bindn E k Ekk. inversion E; subst; clear E.
  pose proof (setattr_rext I R allv_atom Eh) as X.
  split; [apply X|]. apply alla_aset; [exact (alla_rext X Q) | apply allv_atom].
Qed.

Lemma fp_rm_entry : forall k tbl, fp_fun (rm_entry k tbl).
Proof.
  intros k tbl h b hc h' res B I E. unfold rm_entry in E.
  bindn E fs Ef. bindn E x Ex. destruct x as [h1 d]. cbn [fst snd] in E.
  destruct (alloc h1 (ODict d)) as [h2 md] eqn:A. bindn E h3 Em. inversion E; subst; clear E.
  destruct (floop_fp _ (rega h b) (reach h b) h _ (rm_step_fp tbl (reach h b) h) fs hc [] h1 d I (entry_fields_region I Ef) alla_nil Ex) as [I1 Q1].
  destruct (alloc_rext I1 A (proj1 allo_dict Q1)) as [X2 Rm].
  pose proof (meta_set_fp (proj1 X2) (region_self h b) (proj1 allv_ref Rm) Em) as [I3 _]. exact (ret_self I3 B).
Qed.

Lemma fp_rm_string : forall k tbl, fp_fun (rm_string k tbl).
Proof.
  intros k tbl h b hc h' res B I E. unfold rm_string in E.
  bindn E v Ev. bindn E a Ea. bindn E se Es. bindn E h1 Eh. bindn E h2 Em. inversion E; subst; clear E.
  pose proof (setattr_rext I (region_self h b) allv_atom Eh) as [I1 _].
  pose proof (meta_set_fp I1 (region_self h b) allv_atom Em) as [I2 _]. exact (ret_self I2 B).
Qed.

Lemma add_step_fp tbl prev Rg h : forall hc (u : unit) f h1 u1, rinv Rg h hc -> rgn Rg h f ->
  add_step tbl prev hc u f = Some (h1, u1) -> rinv Rg h h1.
Proof.
  intros hc u f h1 u1 I R E. unfold add_step in E.
  bindn E v Ev. bindn E a Ea. bindn E kv Ek. bindn E k Ekk. bindn E p Ep. bindn E n En. bindn E h2 Eh. inversion E; subst; clear E.
  exact (proj1 (setattr_rext I R allv_atom Eh)).
Qed.

Lemma fp_add_entry : forall k tbl, fp_fun (add_entry k tbl).
Proof.
  intros k tbl h b hc h' res B I E. unfold add_entry in E. bindn E mdv Em. bindn E md Emd. bindn E d Ed.
  pose proof (rinv_closed I) as C. pose proof (as_ref_all (closed_getattr C (region_self h b) Em) Emd) as Rm.
  assert (X0 : fp_ext h b hc (set_obj hc md (ODict (adel d k)))).
  { apply set_rext; [exact I | apply Rm|]. apply allo_dict.
    intros k1 v1 I1. exact (closed_get_dict C (proj2 Rm) Ed k1 v1 (adel_in _ _ _ _ I1)). }
  bindn E prev Ep. bindn E fs Ef. bindn E x Ex. destruct x as [h1 u]. cbn [fst] in E. inversion E; subst; clear E.
  pose proof (floop_fp0 _ (reach h b) h _ (add_step_fp tbl prev (reach h b) h) fs _ tt _ _ (proj1 X0) (entry_fields_region (proj1 X0) Ef) Ex) as I1.
  exact (ret_self I1 B).
Qed.

Lemma fp_add_string : forall k tbl, fp_fun (add_string k tbl).
Proof.
  intros k tbl h b hc h' res B I E. unfold add_string in E.
  bindn E mdv Em. bindn E md Emd. bindn E d Ed. bindn E p Ep. bindn E v Ev. bindn E a Ea. bindn E n En. bindn E h1 Eh.
  inversion E; subst; clear E.
  pose proof (setattr_rext I (region_self h b) allv_atom Eh) as [I1 _]. exact (ret_self I1 B).
Qed.

Lemma last_with_key_in : forall h k fs acc r, last_with_key h k fs acc = Some (Some r) -> In r fs \/ acc = Some r.
Proof.
  intros h k fs. induction fs as [|f rest IH]; simpl; intros acc r E.
  - inversion E; auto.
  - bindn E kv Ek. bindn E kk Ekk. destruct (IH _ _ E) as [I|A]; [left; auto|].
    destruct (Z.eqb kk k); [inversion A; subst; left; auto | right; auto].
Qed.

Lemma fp_month_entry : forall km k mo tbl, fp_fun (month_entry km k mo tbl).
Proof.
  intros km k mo tbl h b hc h' res B I E. unfold month_entry in E.
  bindn E fs Ef. bindn E mf Emf. destruct mf as [f|]; [|inversion E; subst; exact (ret_self I B)].
  bindn E v Ev. bindn E nm En. bindn E h1 Eh. bindn E h2 Em. inversion E; subst; clear E.
  assert (Rf : region h b f).
  { destruct (last_with_key_in _ _ _ _ _ Emf) as [If|A]; [|discriminate]. exact (entry_fields_region I Ef f If). }
  assert (Gn : regv h b hc (fst nm)).
  { destruct v as [a|r]; [bindn En r Er; inversion En; subst; apply allv_atom|].
    inversion En; subst. exact (closed_getattr (rinv_closed I) Rf Ev). }
  pose proof (setattr_rext I Rf Gn Eh) as [I1 _].
  pose proof (meta_set_fp I1 (region_self h b) allv_atom Em) as [I2 _]. exact (ret_self I2 B).
Qed.

Lemma norm_step_fp lower Rg h : forall hc d f h1 d1, rinv Rg h hc -> rgn Rg h f -> alla (robj Rg h hc) d ->
  norm_step lower hc d f = Some (h1, d1) -> rinv Rg h h1 /\ alla (robj Rg h h1) d1.
Proof.
  intros hc d f h1 d1 I R Q E. unfold norm_step in E.
  bindn E kv Ek. bindn E k Ekk. bindn E k' El. bindn E h2 Eh. inversion E; subst; clear E.
  pose proof (setattr_rext I R allv_atom Eh) as X. split; [apply X|].
  apply alla_aset; [exact (alla_rext X Q) | apply allv_ref]. split; [|exact R].
  (* the field was written, so it exists *)
  unfold setattr in Eh. destruct (lookup hc f) eqn:L; [|discriminate]. apply X. eapply lookup_dom; eauto.
Qed.

Lemma fp_norm_entry : forall lower, fp_fun (norm_entry lower).
Proof.
  intros lower h b hc h' res B I E. unfold norm_entry in E.
  bindn E fs Ef. bindn E x Ex. destruct x as [h1 d]. cbn [fst snd] in E.
  destruct (alloc h1 _) as [h2 nl] eqn:A. bindn E h3 Es. inversion E; subst; clear E.
  destruct (floop_fp _ (rega h b) (reach h b) h _ (norm_step_fp lower (reach h b) h) fs hc [] h1 d I (entry_fields_region I Ef) alla_nil Ex) as [I1 Q1].
  destruct (alloc_rext I1 A) as [X2 Rn].
  { apply allo_list. intros v Iv. apply in_map_iff in Iv. destruct Iv as [[k v'] [<- Iv]]. exact (Q1 k v' Iv). }
  pose proof (setattr_rext (proj1 X2) (region_self h b) (proj1 allv_ref Rn) Es) as [I3 _]. exact (ret_self I3 B).
Qed.

Lemma insert_in : forall x l y, In y (insert_ranked x l) -> y = x \/ In y l.
Proof.
  intros x l. induction l as [|z r IH]; simpl; intros y I.
  - destruct I as [<-|[]]; auto.
  - destruct (Nat.leb (fst x) (fst z)).
    + destruct I as [<-|I]; auto.
    + destruct I as [<-|I]; [right; left; auto|]. destruct (IH y I); auto.
Qed.
Lemma sort_in : forall l y, In y (sort_ranked l) -> In y l.
Proof.
  induction l as [|x r IH]; simpl; intros y I; [auto|].
  apply insert_in in I. destruct I as [->|I]; auto.
Qed.
Lemma ranks_in : forall rank dflt h fs rk, ranks rank dflt h fs = Some rk -> forall x, In x rk -> In (snd x) fs.
Proof.
  intros rank dflt h fs. induction fs as [|f r IH]; simpl; intros rk E x I.
  - inversion E; subst. inversion I.
  - bindn E kv Ek. bindn E k Ekk. bindn E r' Er. inversion E; subst. destruct I as [<-|I]; [left; auto | right; eapply IH; eauto].
Qed.

Lemma fp_sort_entry : forall rank dflt k mv, fp_fun (sort_entry rank dflt k mv).
Proof.
  intros rank dflt k mv h b hc h' res B I E. unfold sort_entry in E.
  bindn E fs Ef. bindn E rk Er. destruct (alloc hc _) as [h1 nl] eqn:A. bindn E h2 Es. bindn E h3 Em. inversion E; subst; clear E.
  destruct (alloc_rext I A) as [X1 Rn].
  { apply allo_list. intros v Iv. apply in_map_iff in Iv. destruct Iv as [x [<- Ix]]. apply allv_ref.
    apply (closed_attr_refs (rinv_closed I) (region_self h b) Ef). eapply ranks_in; eauto. apply sort_in; auto. }
  pose proof (setattr_rext (proj1 X1) (region_self h b) (proj1 allv_ref Rn) Es) as [I2 _].
  assert (I3 : fp_inv h b h').
  { destruct mv as [a|l]; [exact (proj1 (meta_set_fp I2 (region_self h b) allv_atom Em))|].
    destruct (alloc_atoms h2 l) as [h2' ol] eqn:A2. destruct (alloc_atoms_fp I2 A2) as [X2' Ro].
    exact (proj1 (meta_set_fp (proj1 X2') (region_self h b) (proj1 allv_ref Ro) Em)). }
  exact (ret_self I3 B).
Qed.

(* a value function of a names middleware (separate, merge, split ...) keeps the invariant of any region, and the value
   it returns, if any, lies in the region *)
Definition valf_ok (valf : valfun) : Prop :=
  forall Rg h hc v h1 r, rinv Rg h hc -> allv (robj Rg h hc) v -> valf hc v = Some (h1, r) ->
    rinv Rg h h1 /\ match r with Some v' => allv (robj Rg h h1) v' | None => True end.

Lemma names_step_fp nk valf Rg h : valf_ok valf -> forall hc (u : bool) f h1 u1, rinv Rg h hc -> rgn Rg h f ->
  names_step nk valf hc u f = Some (h1, u1) -> rinv Rg h h1.
Proof.
  intros V hc u f h1 u1 I R E. unfold names_step in E.
  destruct u; [inversion E; subst; exact I|].
  bindn E kv Ek. bindn E k Ekk. destruct (existsb (Z.eqb k) nk); [|inversion E; subst; exact I].
  bindn E v Ev. bindn E r Er. destruct r as [h2 r]. pose proof (V Rg h hc v h2 r I (closed_getattr (rinv_closed I) R Ev) Er) as [I2 Gv].
  destruct r as [v'|]; cbn [fst snd] in E; [|inversion E; subst; exact I2].
  bindn E h3 Es. inversion E; subst; clear E. exact (proj1 (setattr_rext I2 R Gv Es)).
Qed.

Lemma fp_names_entry : forall nk valf, valf_ok valf -> fp_fun (names_entry nk valf).
Proof.
  intros nk valf V h b hc h' res B I E. unfold names_entry in E.
  bindn E fs Ef. bindn E x Ex. destruct x as [h1 fl]. cbn [fst snd] in E.
  exact (fp_or_error fl B (floop_fp0 _ (reach h b) h _ (names_step_fp nk valf (reach h b) h V) fs hc false h1 fl I (entry_fields_region I Ef) Ex) E).
Qed.

Lemma separate_ok : forall tbl, valf_ok (separate_val tbl).
Proof.
  intros tbl Rg h hc v h1 r I G E. unfold separate_val in E. bindn E a Ea. bindn E l El.
  destruct (alloc_atoms hc l) as [h2 nl] eqn:A. inversion E; subst.
  destruct (alloc_atoms_fp I A) as [X R]. split; [apply X | apply allv_ref, R].
Qed.

Lemma merge_co_ok : forall tbl, valf_ok (merge_co_val tbl).
Proof.
  intros tbl Rg h hc v h1 r I G E. unfold merge_co_val in E.
  destruct v as [a|o]; [inversion E; subst; auto|].
  destruct (lookup hc o) as [[xs| |]|]; try (inversion E; subst; auto).
  bindn E l El. bindn E a Ea. inversion E; subst. split; [exact I | apply allv_atom].
Qed.

Lemma alloc_parts_fp : forall Rg h hc p h1 np, rinv Rg h hc -> alloc_parts hc p = Some (h1, np) ->
  rext Rg h hc h1 /\ robj Rg h h1 np.
Proof.
  intros Rg h hc p h1 np I E. unfold alloc_parts in E.
  destruct p as [|fi [|vo [|la [|jr [|? ?]]]]]; try discriminate.
  destruct (alloc_atoms hc fi) as [h2 l1] eqn:A1. destruct (alloc_atoms h2 vo) as [h3 l2] eqn:A2.
  destruct (alloc_atoms h3 la) as [h4 l3] eqn:A3. destruct (alloc_atoms h4 jr) as [h5 l4] eqn:A4.
  destruct (alloc h5 _) as [h6 n] eqn:A5. inversion E; subst; clear E.
  destruct (alloc_atoms_fp I A1) as [X1 R1]. destruct (alloc_atoms_fp (proj1 X1) A2) as [X2 R2].
  destruct (alloc_atoms_fp (proj1 X2) A3) as [X3 R3]. destruct (alloc_atoms_fp (proj1 X3) A4) as [X4 R4].
  destruct (alloc_rext (proj1 X4) A5) as [X5 R5].
  { apply allo_inst. repeat apply alla_cons; try apply alla_nil; apply allv_ref.
    - exact (rext_robj X4 _ (rext_robj X3 _ (rext_robj X2 _ R1))).
    - exact (rext_robj X4 _ (rext_robj X3 _ R2)).
    - exact (rext_robj X4 _ R3).
    - exact R4. }
  exact (conj (rext_trans X1 (rext_trans X2 (rext_trans X3 (rext_trans X4 X5)))) R5).
Qed.

Lemma alloc_parts_list_fp : forall Rg h ps hc h1 l, rinv Rg h hc -> alloc_parts_list hc ps = Some (h1, l) ->
  rext Rg h hc h1 /\ alll (robj Rg h h1) l.
Proof.
  intros Rg h ps. induction ps as [|p r IH]; simpl; intros hc h1 l I E.
  - inversion E; subst. split; [exact (rext_refl I) | intros v []].
  - bindn E x Ex. destruct x as [h2 np]. cbn [fst snd] in E. bindn E y Ey. destruct y as [h3 l']. cbn [fst snd] in E.
    inversion E; subst; clear E.
    destruct (alloc_parts_fp _ _ _ _ _ _ I Ex) as [X1 R1]. destruct (IH _ _ _ (proj1 X1) Ey) as [X2 G2].
    split; [exact (rext_trans X1 X2)|]. intros v [<-|Iv]; [apply allv_ref, (rext_robj X2 _ R1) | auto].
Qed.

Lemma split_ok : forall tbl, valf_ok (split_val tbl).
Proof.
  intros tbl Rg h hc v h1 r I G E. unfold split_val in E. bindn E o Eo. bindn E xs Ex. bindn E l El. bindn E sp Es.
  destruct sp as [ps|]; [|inversion E; subst; auto].
  bindn E x Ea. destruct x as [h2 pl]. cbn [fst snd] in E. destruct (alloc h2 (OList pl)) as [h3 nl] eqn:A. inversion E; subst; clear E.
  destruct (alloc_parts_list_fp _ _ _ _ _ _ I Ea) as [X1 G1].
  destruct (alloc_rext (proj1 X1) A (proj1 allo_list G1)) as [X2 R2]. split; [apply X2 | apply allv_ref, R2].
Qed.

Lemma merge_parts_ok : forall tbl, valf_ok (merge_parts_val tbl).
Proof.
  intros tbl Rg h hc v h1 r I G E. unfold merge_parts_val in E. bindn E o Eo. bindn E xs Ex. bindn E ps Ep. bindn E l El.
  destruct (alloc_atoms hc l) as [h2 nl] eqn:A. inversion E; subst.
  destruct (alloc_atoms_fp I A) as [X R]. split; [apply X | apply allv_ref, R].
Qed.

Lemma latex_part_fp : forall tbl Rg h hc e p a h1 e1, rinv Rg h hc -> rgn Rg h p ->
  latex_part tbl hc e p a = Some (h1, e1) -> rinv Rg h h1.
Proof.
  intros tbl Rg h hc e p a h1 e1 I R E. unfold latex_part in E. bindn E lx El. bindn E l Ea. bindn E ne En.
  destruct (alloc_atoms hc (fst ne)) as [h2 nl] eqn:A. bindn E h3 Es. inversion E; subst; clear E.
  destruct (alloc_atoms_fp I A) as [X1 R1]. exact (proj1 (setattr_rext (proj1 X1) R (proj1 allv_ref R1) Es)).
Qed.

Lemma latex_step_fp tbl Rg h : forall hc (e : bool) f h1 e1, rinv Rg h hc -> rgn Rg h f ->
  latex_step tbl hc e f = Some (h1, e1) -> rinv Rg h h1.
Proof.
  intros hc e f h1 e1 I R E. unfold latex_step in E. bindn E v Ev.
  pose proof (closed_getattr (rinv_closed I) R Ev) as Gv.
  destruct v as [a|p].
  - bindn E x Ex. destruct x as [ne|]; [|inversion E; subst; exact I].
    bindn E h2 Es. inversion E; subst. exact (proj1 (setattr_rext I R allv_atom Es)).
  - apply allv_ref in Gv. destruct Gv as [_ Rp].
    destruct (class_of hc p) as [c|]; [|inversion E; subst; exact I].
    destruct (Z.eqb c C_NameParts); [|inversion E; subst; exact I].
    bindn E x1 E1. destruct x1 as [h2 e2]. cbn [fst snd] in E. bindn E x2 E2. destruct x2 as [h3 e3]. cbn [fst snd] in E.
    bindn E x3 E3. destruct x3 as [h4 e4]. cbn [fst snd] in E.
    pose proof (latex_part_fp _ _ _ _ _ _ _ _ _ I Rp E1) as I1. pose proof (latex_part_fp _ _ _ _ _ _ _ _ _ I1 Rp E2) as I2.
    pose proof (latex_part_fp _ _ _ _ _ _ _ _ _ I2 Rp E3) as I3. exact (latex_part_fp _ _ _ _ _ _ _ _ _ I3 Rp E).
Qed.

Lemma fp_latex_entry : forall tbl, fp_fun (latex_entry tbl).
Proof.
  intros tbl h b hc h' res B I E. unfold latex_entry in E.
  bindn E fs Ef. bindn E x Ex. destruct x as [h1 fl]. cbn [fst snd] in E.
  exact (fp_or_error fl B (floop_fp0 _ (reach h b) h _ (latex_step_fp tbl (reach h b) h) fs hc false h1 fl I (entry_fields_region I Ef) Ex) E).
Qed.

Lemma fp_latex_string : forall tbl, fp_fun (latex_string tbl).
Proof.
  intros tbl h b hc h' res B I E. unfold latex_string in E.
  bindn E v Ev. destruct v as [a|p]; [|inversion E; subst; exact (ret_self I B)].
  bindn E x Ex. destruct x as [ne|]; [|inversion E; subst; exact (ret_self I B)].
  bindn E h1 Es. exact (fp_or_error (snd ne) B (proj1 (setattr_rext I (region_self h b) allv_atom Es)) E).
Qed.

Lemma shipped_footprints : forall s, footprint_ok (shipped_body s).
Proof.
  intros [k t|k t|km k mo t|lo|r d k mv|nk t|nk t|nk t|nk t|t]; simpl;
    unfold remove_enclosing_body, add_enclosing_body, month_body, normalize_body, sort_fields_body, names_body, latex_body;
    apply fp_dispatch; try apply fp_keep.
  - apply fp_rm_entry.
  - apply fp_rm_string.
  - apply fp_add_entry.
  - apply fp_add_string.
  - apply fp_month_entry.
  - apply fp_norm_entry.
  - apply fp_sort_entry.
  - apply fp_names_entry, separate_ok.
  - apply fp_names_entry, merge_co_ok.
  - apply fp_names_entry, split_ok.
  - apply fp_names_entry, merge_parts_ok.
  - apply fp_latex_entry.
  - apply fp_latex_string.
Qed.

(* Properties/C07.v states C07_shipped_stack with its own copy of this predicate (shipped_mw, the same text) *)
Definition shipped_mw_p (m : mw) : Prop :=
  match m with
  | MwBlock i bd => i = false /\ exists s, bd = shipped_body s
  | MwLibrary i => i = false
  | MwResolve i _ _ => i = false
  | MwSort _ => True
  end.
Lemma shipped_mw_ok : forall m, shipped_mw_p m -> mw_ok m.
Proof.
  intros [i bd|i|i bare k|perm]; simpl; intros H; split; simpl; auto; try apply H.
  destruct H as [_ [s ->]]. apply shipped_footprints.
Qed.
Lemma shipped_stack_ok : forall DC, dc_contract DC -> forall ms h lib h' lib',
  Forall shipped_mw_p ms -> ms <> [] -> wf_heap h -> In lib (dom h) ->
  run_stack DC ms h lib = Some (h', lib') -> no_alias h h' lib'.
Proof.
  intros DC C ms h lib h' lib' F. apply run_stack_ok; auto.
  eapply Forall_impl; [|exact F]. apply shipped_mw_ok.
Qed.

(* The runtime text layer of Model/TextIO.v: both directions of each codec (what is written is read back; what is read has
   exactly one spelling), universal newlines, and the file layer end to end.  All by induction, for texts and files of any
   length. *)
From Coq Require Import List ZArith Bool Lia ZifyBool.
Import ListNotations.
From BP Require Import Model.TextIO Proofs.Common.
Local Open Scope Z_scope.
Lemma scalar_spec c : scalar c = true <-> (0 <= c <= 1114111 /\ ~ (55296 <= c <= 57343)).
Proof. unfold scalar, cp_ok, surrogate. lia. Qed.

(* both encoders have the shape: refuse a non-scalar, otherwise prepend the units of the first code point *)
Section Encoder.
  Variable unit_of : Z -> list Z.
  Fixpoint encode_with (s : list Z) : option (list Z) :=
    match s with
    | [] => Some []
    | c :: r => if scalar c then option_map (app (unit_of c)) (encode_with r) else None
    end.

  Lemma encode_with_cons c s out : encode_with (c :: s) = Some out ->
    scalar c = true /\ exists out', encode_with s = Some out' /\ out = unit_of c ++ out'.
  Proof.
    cbn [encode_with]. destruct (scalar c); [|discriminate]. destruct (encode_with s) as [o|]; [|discriminate].
    intro H. injection H as <-. eauto.
  Qed.

  Lemma encode_with_total s : scalars s = true -> exists out, encode_with s = Some out.
  Proof.
    induction s as [|c s IH]; cbn [scalars forallb encode_with]; intro H; [eexists; reflexivity|].
    apply andb_prop in H. destruct H as [Hc Hs]. rewrite Hc. destruct (IH Hs) as [o ->]. eexists; reflexivity.
  Qed.

  Lemma encode_with_refuses s : scalars s = false -> encode_with s = None.
  Proof.
    induction s as [|c s IH]; cbn [scalars forallb encode_with]; intro H; [discriminate|].
    destruct (scalar c); [|reflexivity]. rewrite (IH H). reflexivity.
  Qed.

  (* a decoder that reads back the units of one scalar reads back every encoded text *)
  Lemma encode_with_roundtrip (decode : list Z -> option (list Z)) :
    decode [] = Some [] ->
    (forall c r, scalar c = true -> decode (unit_of c ++ r) = option_map (cons c) (decode r)) ->
    forall s out, encode_with s = Some out -> decode out = Some s.
  Proof.
    intros D0 D s. induction s as [|c s IH]; intros out H.
    - injection H as <-. exact D0.
    - apply encode_with_cons in H as (Hs & o & E & ->). rewrite (D c o Hs), (IH o E). reflexivity.
  Qed.

  Lemma encode_with_forall (p : Z -> bool) : (forall c, scalar c = true -> forallb p (unit_of c) = true) ->
    forall s out, encode_with s = Some out -> forallb p out = true.
  Proof.
    intros P s. induction s as [|c s IH]; intros out H.
    - injection H as <-. reflexivity.
    - apply encode_with_cons in H as (Hs & o & E & ->). rewrite forallb_app, (P c Hs), (IH o E). reflexivity.
  Qed.
End Encoder.
(* [units_encode] is [encode_with units_of_cp] in the same way *)
Lemma utf8_encode_with : utf8_encode = encode_with utf8_enc_cp.
Proof. reflexivity. Qed.

(* digits in a base b: all that the codecs need to know about / and mod; with [x / b] and [x mod b] as atoms the
   byte arithmetic below is linear.  For a literal b the premise [0 < b] is closed by [eq_refl]. *)
Lemma digits b x : 0 < b -> x = x / b * b + x mod b /\ 0 <= x mod b < b.
Proof.
  intro H. split; [rewrite (Z.mul_comm (x / b)); apply Z.div_mod; lia | apply Z.mod_pos_bound; exact H].
Qed.

Lemma digits_unique b x q d : 0 <= d < b -> x = q * b + d -> x / b = q /\ x mod b = d.
Proof.
  intros Hd ->. split; symmetry; [apply (Z.div_unique_pos _ b q d) | apply (Z.mod_unique_pos _ b q d)];
    (exact Hd || ring).
Qed.

Lemma div_4096 x : x / 4096 = x / 64 / 64.
Proof. rewrite Z.div_div by lia. reflexivity. Qed.

Lemma div_262144 x : x / 262144 = x / 64 / 64 / 64.
Proof. rewrite !Z.div_div by lia. reflexivity. Qed.

(* The lead byte selects one of four patterns, or is refused.  [utf8_decode] tests it in a chain of four [if]s whose
   branches are large; the [select] lemmas pick the branch in one step, without rewriting inside the others.  Where the
   context is large, [clear - ...] before [lia] keeps only what it needs: it looks at every hypothesis. *)
Lemma lead_1 b : 0 <= b < 128 -> (0 <=? b) && (b <? 128) = true.
Proof. lia. Qed.
Lemma lead_2 b : 194 <= b <= 223 -> (0 <=? b) && (b <? 128) = false /\ (194 <=? b) && (b <=? 223) = true.
Proof. lia. Qed.
Lemma lead_3 b : 224 <= b <= 239 ->
  (0 <=? b) && (b <? 128) = false /\ (194 <=? b) && (b <=? 223) = false /\ (224 <=? b) && (b <=? 239) = true.
Proof. lia. Qed.
Lemma lead_4 b : 240 <= b <= 244 ->
  (0 <=? b) && (b <? 128) = false /\ (194 <=? b) && (b <=? 223) = false /\ (224 <=? b) && (b <=? 239) = false
  /\ (240 <=? b) && (b <=? 244) = true.
Proof. lia. Qed.
Lemma lead_0 b : b < 0 \/ 128 <= b < 194 \/ 244 < b ->
  (0 <=? b) && (b <? 128) = false /\ (194 <=? b) && (b <=? 223) = false /\ (224 <=? b) && (b <=? 239) = false
  /\ (240 <=? b) && (b <=? 244) = false.
Proof. lia. Qed.

Section Select.
  Context {A : Type} (t1 t2 t3 t4 : bool) (a b c d e : A).
  Let chain := if t1 then a else if t2 then b else if t3 then c else if t4 then d else e.
  Lemma select_2 : t1 = false /\ t2 = true -> chain = b.
  Proof. intros (-> & ->). reflexivity. Qed.
  Lemma select_3 : t1 = false /\ t2 = false /\ t3 = true -> chain = c.
  Proof. intros (-> & -> & ->). reflexivity. Qed.
  Lemma select_4 : t1 = false /\ t2 = false /\ t3 = false /\ t4 = true -> chain = d.
  Proof. intros (-> & -> & -> & ->). reflexivity. Qed.
  Lemma select_0 : t1 = false /\ t2 = false /\ t3 = false /\ t4 = false -> chain = e.
  Proof. intros (-> & -> & -> & ->). reflexivity. Qed.
End Select.

Lemma utf8_decode_1 b r : 0 <= b < 128 -> utf8_decode (b :: r) = option_map (cons b) (utf8_decode r).
Proof. intro H. cbn [utf8_decode]. rewrite (lead_1 b H). reflexivity. Qed.

Lemma utf8_decode_2 b0 r0 : 194 <= b0 <= 223 ->
  utf8_decode (b0 :: r0) =
  match r0 with
  | b1 :: r1 => if cont b1 then option_map (cons ((b0 - 192) * 64 + (b1 - 128))) (utf8_decode r1) else None
  | _ => None
  end.
Proof. intro H. cbn [utf8_decode]. apply select_2, lead_2, H. Qed.

Lemma utf8_decode_3 b0 r0 : 224 <= b0 <= 239 ->
  utf8_decode (b0 :: r0) =
  match r0 with
  | b1 :: b2 :: r2 =>
      let c := (b0 - 224) * 4096 + (b1 - 128) * 64 + (b2 - 128) in
      if cont b1 && cont b2 && (2048 <=? c) && negb (surrogate c) then option_map (cons c) (utf8_decode r2) else None
  | _ => None
  end.
Proof. intro H. cbn [utf8_decode]. apply select_3, lead_3, H. Qed.

Lemma utf8_decode_4 b0 r0 : 240 <= b0 <= 244 ->
  utf8_decode (b0 :: r0) =
  match r0 with
  | b1 :: b2 :: b3 :: r3 =>
      let c := (b0 - 240) * 262144 + (b1 - 128) * 4096 + (b2 - 128) * 64 + (b3 - 128) in
      if cont b1 && cont b2 && cont b3 && (65536 <=? c) && (c <=? 1114111)
      then option_map (cons c) (utf8_decode r3) else None
  | _ => None
  end.
Proof. intro H. cbn [utf8_decode]. apply select_4, lead_4, H. Qed.

Lemma utf8_decode_0 b0 r0 : b0 < 0 \/ 128 <= b0 < 194 \/ 244 < b0 -> utf8_decode (b0 :: r0) = None.
Proof. intro H. cbn [utf8_decode]. apply select_0, lead_0, H. Qed.

(* a continuation byte made from a base-64 digit is one *)
Lemma cont_digit x : cont (128 + x mod 64) = true.
Proof. pose proof (digits 64 x eq_refl). unfold cont. lia. Qed.

(* the three base-64 digits of a code point (from the right) and what is left above them *)
Lemma digits64 c :
  (c = c / 64 * 64 + c mod 64 /\ 0 <= c mod 64 < 64)
  /\ (c / 64 = c / 64 / 64 * 64 + (c / 64) mod 64 /\ 0 <= (c / 64) mod 64 < 64)
  /\ (c / 64 / 64 = c / 64 / 64 / 64 * 64 + (c / 64 / 64) mod 64 /\ 0 <= (c / 64 / 64) mod 64 < 64).
Proof. repeat split; apply (digits 64); reflexivity. Qed.

Lemma utf8_dec_enc_cp c r : scalar c = true ->
  utf8_decode (utf8_enc_cp c ++ r) = option_map (cons c) (utf8_decode r).
Proof.
  intro Hs. apply scalar_spec in Hs. destruct Hs as [Hr Hn].
  pose proof (digits64 c) as D. unfold utf8_enc_cp. rewrite div_4096, div_262144.
  destruct (c <? 128) eqn:L1; [apply utf8_decode_1; lia|].
  destruct (c <? 2048) eqn:L2.
  { cbn [app]. rewrite utf8_decode_2, cont_digit by lia. do 2 f_equal. lia. }
  destruct (c <? 65536) eqn:L3.
  { cbn [app]. rewrite utf8_decode_3 by lia. replace (_ * 4096 + _ * 64 + _) with c by lia.
    cbv zeta. rewrite !cont_digit. unfold surrogate.
    replace (2048 <=? c) with true by lia. replace ((55296 <=? c) && (c <=? 57343)) with false by lia. reflexivity. }
  cbn [app]. rewrite utf8_decode_4 by lia. replace (_ * 262144 + _ * 4096 + _ * 64 + _) with c by lia.
  cbv zeta. rewrite !cont_digit.
  replace (65536 <=? c) with true by lia. replace (c <=? 1114111) with true by lia. reflexivity.
Qed.

Theorem utf8_roundtrip s bs : utf8_encode s = Some bs -> utf8_decode bs = Some s.
Proof. exact (encode_with_roundtrip utf8_enc_cp utf8_decode eq_refl utf8_dec_enc_cp s bs). Qed.

Theorem utf8_encode_total s : scalars s = true -> exists bs, utf8_encode s = Some bs.
Proof. exact (encode_with_total utf8_enc_cp s). Qed.

Theorem utf8_encode_refuses s : scalars s = false -> utf8_encode s = None.
Proof. exact (encode_with_refuses utf8_enc_cp s). Qed.

(* the code point that the decoder makes of a byte pattern is a scalar, and the encoder gives the pattern back *)
Lemma enc_of_dec_1 b : 0 <= b < 128 -> scalar b = true /\ utf8_enc_cp b = [b].
Proof.
  intro C. unfold scalar, cp_ok, surrogate, utf8_enc_cp. replace (b <? 128) with true by lia. split; [lia | reflexivity].
Qed.

Lemma enc_of_dec_2 b0 b1 c : 194 <= b0 <= 223 -> cont b1 = true -> c = (b0 - 192) * 64 + (b1 - 128) ->
  scalar c = true /\ utf8_enc_cp c = [b0; b1].
Proof.
  unfold cont. intros C C1 Hc.
  destruct (digits_unique 64 c (b0 - 192) (b1 - 128)) as [Q0 R0]; [lia | exact Hc |].
  unfold scalar, cp_ok, surrogate, utf8_enc_cp. rewrite Q0, R0.
  replace (c <? 128) with false by lia. replace (c <? 2048) with true by lia.
  split; [lia | do 2 f_equal; lia].
Qed.

Lemma enc_of_dec_3 b0 b1 b2 c : 224 <= b0 <= 239 -> c = (b0 - 224) * 4096 + (b1 - 128) * 64 + (b2 - 128) ->
  cont b1 && cont b2 && (2048 <=? c) && negb (surrogate c) = true ->
  scalar c = true /\ utf8_enc_cp c = [b0; b1; b2].
Proof.
  unfold cont, surrogate. intros C Hc G.
  destruct (digits_unique 64 c ((b0 - 224) * 64 + (b1 - 128)) (b2 - 128)) as [Q0 R0]; [lia | lia |].
  destruct (digits_unique 64 (c / 64) (b0 - 224) (b1 - 128)) as [Q1 R1]; [lia | exact Q0 |].
  unfold scalar, cp_ok, surrogate, utf8_enc_cp. rewrite div_4096, Q1, R1, R0.
  replace (c <? 128) with false by lia. replace (c <? 2048) with false by lia. replace (c <? 65536) with true by lia.
  split; [lia | do 3 f_equal; lia].
Qed.

Lemma enc_of_dec_4 b0 b1 b2 b3 c : 240 <= b0 <= 244 ->
  c = (b0 - 240) * 262144 + (b1 - 128) * 4096 + (b2 - 128) * 64 + (b3 - 128) ->
  cont b1 && cont b2 && cont b3 && (65536 <=? c) && (c <=? 1114111) = true ->
  scalar c = true /\ utf8_enc_cp c = [b0; b1; b2; b3].
Proof.
  unfold cont. intros C Hc G.
  destruct (digits_unique 64 c (((b0 - 240) * 64 + (b1 - 128)) * 64 + (b2 - 128)) (b3 - 128)) as [Q0 R0]; [lia | lia |].
  destruct (digits_unique 64 (c / 64) ((b0 - 240) * 64 + (b1 - 128)) (b2 - 128)) as [Q1 R1]; [lia | exact Q0 |].
  destruct (digits_unique 64 (c / 64 / 64) (b0 - 240) (b1 - 128)) as [Q2 R2]; [lia | exact Q1 |].
  unfold scalar, cp_ok, surrogate, utf8_enc_cp. rewrite div_4096, div_262144, Q2, R2, R1, R0.
  replace (c <? 128) with false by lia. replace (c <? 2048) with false by lia. replace (c <? 65536) with false by lia.
  split; [lia | do 4 f_equal; lia].
Qed.

(* one step of the decoder, read backwards: the bytes it consumed are the encoding of the code point it produced *)
Lemma utf8_decode_step b0 r0 s : utf8_decode (b0 :: r0) = Some s ->
  exists c r s', scalar c = true /\ b0 :: r0 = utf8_enc_cp c ++ r /\ utf8_decode r = Some s' /\ s = c :: s'.
Proof.
  assert (F : forall c bs r, scalar c = true /\ utf8_enc_cp c = bs -> option_map (cons c) (utf8_decode r) = Some s ->
              exists c r' s', scalar c = true /\ bs ++ r = utf8_enc_cp c ++ r' /\ utf8_decode r' = Some s' /\ s = c :: s').
  { intros c bs r [Sc <-] H. destruct (utf8_decode r) as [s'|] eqn:E; [|discriminate]. injection H as <-.
    exists c, r, s'. auto. }
  intro H.
  assert (C : 0 <= b0 < 128 \/ 194 <= b0 <= 223 \/ 224 <= b0 <= 239 \/ 240 <= b0 <= 244
              \/ (b0 < 0 \/ 128 <= b0 < 194 \/ 244 < b0)) by lia.
  destruct C as [C|[C|[C|[C|C]]]].
  - rewrite utf8_decode_1 in H by exact C. exact (F _ [b0] r0 (enc_of_dec_1 b0 C) H).
  - rewrite utf8_decode_2 in H by exact C.
    destruct r0 as [|b1 r1]; [discriminate|]. destruct (cont b1) eqn:C1; [|discriminate].
    exact (F _ [b0; b1] r1 (enc_of_dec_2 b0 b1 _ C C1 eq_refl) H).
  - rewrite utf8_decode_3 in H by exact C.
    destruct r0 as [|b1 [|b2 r2]]; try discriminate. cbv zeta in H.
    destruct (cont b1 && cont b2 && _ && _) eqn:G; [|discriminate].
    exact (F _ [b0; b1; b2] r2 (enc_of_dec_3 b0 b1 b2 _ C eq_refl G) H).
  - rewrite utf8_decode_4 in H by exact C.
    destruct r0 as [|b1 [|b2 [|b3 r3]]]; try discriminate. cbv zeta in H.
    destruct (cont b1 && cont b2 && cont b3 && _ && _) eqn:G; [|discriminate].
    exact (F _ [b0; b1; b2; b3] r3 (enc_of_dec_4 b0 b1 b2 b3 _ C eq_refl G) H).
  - rewrite utf8_decode_0 in H by exact C. discriminate.
Qed.

(* the decoder accepts ONLY what the encoder writes: no second spelling of any text *)
Theorem utf8_canonical bs s : utf8_decode bs = Some s -> utf8_encode s = Some bs.
Proof.
  revert bs. induction s as [|c s IH]; intros [|b0 r0] H; try reflexivity; try discriminate H;
    destruct (utf8_decode_step b0 r0 _ H) as (c' & r & s' & Hc & Hb & E & Hs); [discriminate Hs|].
  injection Hs as <- <-. cbn [utf8_encode]. rewrite Hc, (IH r E), Hb. reflexivity.
Qed.

Theorem utf8_decode_scalars bs s : utf8_decode bs = Some s -> scalars s = true.
Proof.
  intro H. apply utf8_canonical in H. destruct (scalars s) eqn:E; [reflexivity|].
  rewrite (utf8_encode_refuses s E) in H. discriminate.
Qed.

Theorem utf8_decode_injective b1 b2 s : utf8_decode b1 = Some s -> utf8_decode b2 = Some s -> b1 = b2.
Proof. intros H1 H2. apply utf8_canonical in H1, H2. congruence. Qed.

Lemma utf8_enc_cp_bytes c : scalar c = true -> bytes_ok (utf8_enc_cp c) = true.
Proof.
  intro Hs. apply scalar_spec in Hs. pose proof (digits64 c) as D.
  unfold utf8_enc_cp, bytes_ok, byte_ok. rewrite div_4096, div_262144.
  destruct (c <? 128) eqn:?; [cbn [forallb]; lia|]. destruct (c <? 2048) eqn:?; [cbn [forallb]; lia|].
  destruct (c <? 65536) eqn:?; cbn [forallb]; lia.
Qed.

Theorem utf8_encode_bytes s bs : utf8_encode s = Some bs -> bytes_ok bs = true.
Proof. exact (encode_with_forall utf8_enc_cp byte_ok utf8_enc_cp_bytes s bs). Qed.

Definition unit_ok (u : Z) : bool := (0 <=? u) && (u <=? 65535).

(* units and bytes, for both byte orders: [join] makes a unit of two bytes, [split] gives the two bytes of a unit;
   [units_le], [bytes_le] and [units_be], [bytes_be] are the two instances, by conversion *)
Section ByteOrder.
  Variables (join : Z -> Z -> Z) (split : Z -> list Z).

  Fixpoint units_with (bs : list Z) : option (list Z) :=
    match bs with
    | [] => Some []
    | b0 :: b1 :: r => option_map (cons (join b0 b1)) (units_with r)
    | _ => None
    end.

  Hypothesis join_split : forall u, exists b0 b1, split u = [b0; b1] /\ join b0 b1 = u.
  Hypothesis split_join : forall b0 b1, byte_ok b0 = true -> byte_ok b1 = true ->
    split (join b0 b1) = [b0; b1] /\ unit_ok (join b0 b1) = true.

  Lemma units_with_bytes us : units_with (flat_map split us) = Some us.
  Proof.
    induction us as [|u us IH]; cbn [flat_map]; [reflexivity|].
    destruct (join_split u) as (b0 & b1 & -> & <-). cbn [app units_with]. rewrite IH. reflexivity.
  Qed.

  Lemma units_with_inv bs us : bytes_ok bs = true -> units_with bs = Some us ->
    flat_map split us = bs /\ forallb unit_ok us = true.
  Proof.
    revert us. induction bs as [bs IH] using list_len_ind. intros us Hb H.
    destruct bs as [|b0 [|b1 r]]; cbn [units_with] in H; try discriminate.
    { injection H as <-. split; reflexivity. }
    destruct (units_with r) as [us'|] eqn:E; [|discriminate]. injection H as <-.
    cbn [bytes_ok forallb] in Hb. apply andb_prop in Hb. destruct Hb as [H0 Hb].
    apply andb_prop in Hb. destruct Hb as [H1 Hb].
    destruct (IH r ltac:(cbn [length]; lia) us' Hb E) as [I1 I2]. destruct (split_join b0 b1 H0 H1) as [S1 S2].
    cbn [flat_map forallb]. rewrite S1, S2, I1, I2. split; reflexivity.
  Qed.
End ByteOrder.

Lemma le_join_split u : exists b0 b1, [u mod 256; u / 256] = [b0; b1] /\ b0 + b1 * 256 = u.
Proof. eexists _, _. split; [reflexivity|]. destruct (digits 256 u eq_refl). lia. Qed.
Lemma be_join_split u : exists b0 b1, [u / 256; u mod 256] = [b0; b1] /\ b0 * 256 + b1 = u.
Proof. eexists _, _. split; [reflexivity|]. destruct (digits 256 u eq_refl). lia. Qed.
Lemma le_split_join b0 b1 : byte_ok b0 = true -> byte_ok b1 = true ->
  [(b0 + b1 * 256) mod 256; (b0 + b1 * 256) / 256] = [b0; b1] /\ unit_ok (b0 + b1 * 256) = true.
Proof.
  unfold byte_ok, unit_ok. intros H0 H1.
  destruct (digits_unique 256 (b0 + b1 * 256) b1 b0) as [-> ->]; [lia | lia |]. split; [reflexivity | lia].
Qed.
Lemma be_split_join b0 b1 : byte_ok b0 = true -> byte_ok b1 = true ->
  [(b0 * 256 + b1) / 256; (b0 * 256 + b1) mod 256] = [b0; b1] /\ unit_ok (b0 * 256 + b1) = true.
Proof.
  unfold byte_ok, unit_ok. intros H0 H1.
  destruct (digits_unique 256 (b0 * 256 + b1) b0 b1) as [-> ->]; [lia | lia |]. split; [reflexivity | lia].
Qed.

Lemma units_le_bytes us : units_le (bytes_le us) = Some us.
Proof. exact (units_with_bytes _ _ le_join_split us). Qed.
Lemma units_be_bytes us : forallb (fun u => (0 <=? u) && (u <=? 65535)) us = true -> units_be (bytes_be us) = Some us.
Proof. intros _. exact (units_with_bytes _ _ be_join_split us). Qed.
Lemma units_le_inv bs us : bytes_ok bs = true -> units_le bs = Some us -> bytes_le us = bs /\ forallb unit_ok us = true.
Proof. exact (units_with_inv _ _ le_split_join bs us). Qed.
Lemma units_be_inv bs us : bytes_ok bs = true -> units_be bs = Some us -> bytes_be us = bs /\ forallb unit_ok us = true.
Proof. exact (units_with_inv _ _ be_split_join bs us). Qed.

(* a code point above the basic plane is 0x10000 plus two base-1024 digits, carried by the two surrogates *)
Lemma units_dec_enc_cp c r : scalar c = true ->
  units_decode (units_of_cp c ++ r) = option_map (cons c) (units_decode r).
Proof.
  intro Hs. apply scalar_spec in Hs. pose proof (digits 1024 (c - 65536) eq_refl) as D.
  unfold units_of_cp. destruct (c <? 65536) eqn:E; cbn [app units_decode]; unfold hi_sur, lo_sur.
  - replace ((55296 <=? c) && (c <=? 56319)) with false by lia.
    replace ((56320 <=? c) && (c <=? 57343)) with false by lia. reflexivity.
  - replace ((55296 <=? _) && (_ <=? 56319)) with true by lia.
    replace ((56320 <=? _) && (_ <=? 57343)) with true by lia. do 2 f_equal. lia.
Qed.

Lemma units_roundtrip s us : units_encode s = Some us -> units_decode us = Some s.
Proof. exact (encode_with_roundtrip units_of_cp units_decode eq_refl units_dec_enc_cp s us). Qed.

Lemma units_canonical us s : forallb unit_ok us = true -> units_decode us = Some s -> units_encode s = Some us.
Proof.
  revert s. induction us as [us IH] using list_len_ind. intros s Hr H.
  destruct us as [|u r]; cbn [units_decode] in H.
  { injection H as <-. reflexivity. }
  cbn [forallb] in Hr. apply andb_prop in Hr. destruct Hr as [Hu Hr]. unfold unit_ok in Hu.
  destruct (hi_sur u) eqn:Eh.
  { destruct r as [|u2 r2]; [discriminate|]. destruct (lo_sur u2) eqn:El; [|discriminate].
    cbn [forallb] in Hr. apply andb_prop in Hr. destruct Hr as [Hu2 Hr].
    remember (65536 + (u - 55296) * 1024 + (u2 - 56320)) as c eqn:Hc.
    destruct (units_decode r2) as [s'|] eqn:E; [|discriminate]. cbn [option_map] in H. injection H as <-.
    unfold hi_sur in Eh. unfold lo_sur in El.
    destruct (digits_unique 1024 (c - 65536) (u - 55296) (u2 - 56320)) as [Q R]; [clear - El; lia | clear - Hc; lia |].
    cbn [units_encode]. replace (scalar c) with true by (unfold scalar, cp_ok, surrogate; clear - Hc Eh El; lia).
    rewrite (IH r2 ltac:(cbn [length]; lia) s' Hr E). unfold units_of_cp. rewrite Q, R.
    replace (c <? 65536) with false by (clear - Hc Eh El; lia). cbn [option_map app]. do 3 f_equal; clear; lia. }
  destruct (lo_sur u) eqn:El; [discriminate|].
  destruct (units_decode r) as [s'|] eqn:E; [|discriminate]. cbn [option_map] in H. injection H as <-.
  unfold hi_sur in Eh. unfold lo_sur in El.
  cbn [units_encode]. replace (scalar u) with true by (unfold scalar, cp_ok, surrogate; lia).
  rewrite (IH r ltac:(cbn [length]; lia) s' Hr E). unfold units_of_cp. replace (u <? 65536) with true by lia. reflexivity.
Qed.

Theorem utf16_roundtrip s bs : utf16_encode s = Some bs -> utf16_decode bs = Some s.
Proof.
  unfold utf16_encode. destruct (units_encode s) as [us|] eqn:E; [|discriminate]. cbn [option_map]. intro H. injection H as <-.
  cbn [utf16_decode]. rewrite units_le_bytes. apply units_roundtrip. exact E.
Qed.

(* a file the decoder accepts is empty or starts with one of the two byte order marks *)
Lemma utf16_decode_mark bs s : utf16_decode bs = Some s ->
  bs = [] \/ (exists r, bs = 255 :: 254 :: r) \/ (exists r, bs = 254 :: 255 :: r).
Proof.
  (* the marks are matched as binary numerals: follow their bits, every other branch is refused *)
  destruct bs as [|b0 [|b1 r]]; [left; reflexivity | |]; intro H; right.
  - exfalso. destruct b0 as [|p|p]; try discriminate H. repeat (destruct p as [p|p|]; try discriminate H).
  - destruct b0 as [|p|p]; try discriminate H. repeat (destruct p as [p|p|]; try discriminate H).
    all: destruct b1 as [|p|p]; try discriminate H; repeat (destruct p as [p|p|]; try discriminate H).
    all: [> left | right]; eexists; reflexivity.
Qed.

(* what the decoder accepts is the empty file, or a mark followed by the units the encoder computes, in the order the mark
   announces: every accepted file of a given byte order is the unique spelling of its text *)
Theorem utf16_canonical bs s : bytes_ok bs = true -> utf16_decode bs = Some s ->
  exists us, units_encode s = Some us /\
             ((bs = [] /\ us = []) \/ bs = 255 :: 254 :: bytes_le us \/ bs = 254 :: 255 :: bytes_be us).
Proof.
  intros Hb H. destruct (utf16_decode_mark bs s H) as [->|[[r ->]|[r ->]]].
  - injection H as <-. exists []. split; [reflexivity|]. left. split; reflexivity.
  - apply andb_prop in Hb as [_ Hb]. apply andb_prop in Hb as [_ Hb].
    cbn [utf16_decode] in H. destruct (units_le r) as [us|] eqn:E; [|discriminate].
    destruct (units_le_inv r us Hb E) as [<- I2]. exists us. split; [apply units_canonical; assumption | auto].
  - apply andb_prop in Hb as [_ Hb]. apply andb_prop in Hb as [_ Hb].
    cbn [utf16_decode] in H. destruct (units_be r) as [us|] eqn:E; [|discriminate].
    destruct (units_be_inv r us Hb E) as [<- I2]. exists us. split; [apply units_canonical; assumption | auto].
Qed.

Theorem latin1_roundtrip s bs : latin1_encode s = Some bs -> latin1_decode bs = Some s.
Proof. unfold latin1_encode, latin1_decode. destruct (forallb _ s); [|discriminate]. intro H. injection H as <-. reflexivity. Qed.
Theorem latin1_canonical bs s : bytes_ok bs = true -> latin1_decode bs = Some s -> latin1_encode s = Some bs.
Proof. unfold latin1_encode, latin1_decode, bytes_ok, byte_ok. intros Hb H. injection H as <-. rewrite Hb. reflexivity. Qed.
Theorem latin1_decode_total bs : latin1_decode bs = Some bs.
Proof. reflexivity. Qed.

Definition no_cr (s : list Z) : bool := forallb (fun c => negb (c =? 13)) s.

(* what follows a carriage return: a line feed directly after it is dropped with it *)
Definition after_cr (r : list Z) : list Z := match r with d :: r' => if d =? 10 then r' else r | [] => [] end.

(* [nl_read] matches on the numerals 13 and 10; this is the same function with tests.  13 and 10 have four binary
   digits: a number that differs from them is told apart within four steps along its digits. *)
Lemma nl_read_eq c r : nl_read (c :: r) = if c =? 13 then 10 :: nl_read (after_cr r) else c :: nl_read r.
Proof.
  destruct (Z.eqb_spec c 13) as [->|N].
  - cbn [nl_read]. f_equal. destruct r as [|d r']; [reflexivity|]. cbn [after_cr].
    destruct (Z.eqb_spec d 10) as [->|Nd]; [reflexivity|].
    destruct d as [|p|p]; try reflexivity. do 4 (destruct p as [p|p|]; try reflexivity). contradiction Nd; reflexivity.
  - cbn [nl_read]. destruct c as [|p|p]; try reflexivity. do 4 (destruct p as [p|p|]; try reflexivity). contradiction N; reflexivity.
Qed.
Lemma nl_read_cons c r : c <> 13 -> nl_read (c :: r) = c :: nl_read r.
Proof. intro H. rewrite nl_read_eq. destruct (Z.eqb_spec c 13); [contradiction | reflexivity]. Qed.
Lemma nl_read_cr r : nl_read (13 :: r) = 10 :: nl_read (after_cr r).
Proof. apply nl_read_eq. Qed.
Lemma after_cr_length r : (length (after_cr r) <= length r)%nat.
Proof. destruct r as [|d r]; [reflexivity|]. cbn [after_cr]. destruct (d =? 10); cbn [length]; lia. Qed.

Theorem nl_read_id s : no_cr s = true -> nl_read s = s.
Proof.
  induction s as [|c s IH]; cbn [no_cr forallb]; intro H; [reflexivity|].
  apply andb_prop in H. destruct H as [Hc Hs]. rewrite nl_read_cons by lia. rewrite (IH Hs). reflexivity.
Qed.

Theorem nl_read_no_cr s : no_cr (nl_read s) = true.
Proof.
  induction s as [s IH] using list_len_ind. destruct s as [|c r]; [reflexivity|]. rewrite nl_read_eq.
  pose proof (after_cr_length r). destruct (Z.eqb_spec c 13); cbn [no_cr forallb]; rewrite IH by (cbn [length]; lia); lia.
Qed.

Theorem nl_read_idem s : nl_read (nl_read s) = nl_read s.
Proof. apply nl_read_id. apply nl_read_no_cr. Qed.

Theorem nl_read_length s : (length (nl_read s) <= length s)%nat.
Proof.
  induction s as [s IH] using list_len_ind. destruct s as [|c r]; [reflexivity|]. rewrite nl_read_eq.
  pose proof (after_cr_length r). destruct (c =? 13); cbn [length].
  - specialize (IH (after_cr r) ltac:(cbn [length]; lia)). lia.
  - specialize (IH r ltac:(cbn [length]; lia)). lia.
Qed.

Theorem write_then_read e s bs : write_text e s = Some bs -> read_text e bs = Some (nl_read s).
Proof.
  unfold write_text, read_text. intro H.
  assert (D : decode e bs = Some s).
  { destruct e; cbn [encode decode] in *;
      [apply utf8_roundtrip | apply latin1_roundtrip | apply utf16_roundtrip]; exact H. }
  rewrite D. reflexivity.
Qed.

(* a text without carriage returns survives the file exactly; one with a carriage return does NOT *)
Theorem file_transparent e s bs : no_cr s = true -> write_text e s = Some bs -> read_text e bs = Some s.
Proof. intros Hn H. rewrite (write_then_read e s bs H), (nl_read_id s Hn). reflexivity. Qed.

Theorem file_not_transparent_cr :
  exists s bs, write_text Utf8 s = Some bs /\ read_text Utf8 bs <> Some s.
Proof. exists [97; 13; 98], [97; 13; 98]. split; [reflexivity|]. vm_compute. discriminate. Qed.

(* which texts can be written at all *)
Theorem write_total_utf8 s : scalars s = true -> exists bs, write_text Utf8 s = Some bs /\ bytes_ok bs = true.
Proof. intro H. destruct (utf8_encode_total s H) as [bs E]. exists bs. split; [exact E|]. apply (utf8_encode_bytes s bs E). Qed.
Theorem write_refuses_surrogates_utf8 s : scalars s = false -> write_text Utf8 s = None.
Proof. apply utf8_encode_refuses. Qed.

Theorem read_no_cr e bs s : read_text e bs = Some s -> no_cr s = true.
Proof. unfold read_text. destruct (decode e bs); [|discriminate]. cbn. intro H. injection H as <-. apply nl_read_no_cr. Qed.

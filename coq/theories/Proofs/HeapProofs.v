(* C07 - frame reasoning over the heap (Model/Heap.v, Model/HeapMw.v). *)
From Coq Require Import List ZArith Bool Arith Lia.
From BP Require Import Model.Heap Model.HeapMw Spec.C07 Proofs.Common.
Import ListNotations.

(* alloc stays folded under simpl: the proofs name each allocation (destruct (alloc ..) eqn:) and reason from alloc_rext *)
Arguments alloc : simpl never.

Lemma lookup_dom : forall h p ob, lookup h p = Some ob -> In p (dom h).
Proof.
  induction h as [|[k v] r IH]; simpl; intros p ob H; [discriminate|].
  destruct (Nat.eqb k p) eqn:E.
  - left. now apply Nat.eqb_eq.
  - right. eapply IH; eauto.
Qed.

Lemma dom_lookup : forall h p, In p (dom h) -> exists ob, lookup h p = Some ob.
Proof.
  induction h as [|[k v] r IH]; simpl; intros p H; [contradiction|].
  destruct (Nat.eqb k p) eqn:E; [eauto|].
  destruct H as [H|H]; [subst; rewrite Nat.eqb_refl in E; discriminate|auto].
Qed.

Lemma lookup_none : forall h p, ~ In p (dom h) -> lookup h p = None.
Proof.
  intros h p H. destruct (lookup h p) eqn:E; [|reflexivity]. exfalso. eauto using lookup_dom.
Qed.

Lemma dom_lt_fresh : forall h p, In p (dom h) -> p < fresh h.
Proof. intros h. exact (list_max_lt (dom h)). Qed.

Lemma fresh_not_in : forall h, ~ In (fresh h) (dom h).
Proof. intros h. exact (list_max_fresh (dom h)). Qed.

Lemma lookup_set : forall h o ob p, lookup (set_obj h o ob) p = if Nat.eqb o p then Some ob else lookup h p.
Proof. reflexivity. Qed.

Lemma lookup_set_other : forall h o ob p, o <> p -> lookup (set_obj h o ob) p = lookup h p.
Proof. intros. rewrite lookup_set. destruct (Nat.eqb o p) eqn:E; [apply Nat.eqb_eq in E; contradiction|reflexivity]. Qed.

Lemma lookup_set_same : forall h o ob, lookup (set_obj h o ob) o = Some ob.
Proof. intros. rewrite lookup_set, Nat.eqb_refl. reflexivity. Qed.

Lemma dom_set : forall h o ob p, In p (dom (set_obj h o ob)) <-> p = o \/ In p (dom h).
Proof. intros. simpl. split; intros [H|H]; auto. Qed.

Lemma unchanged_refl : forall h, unchanged h h.
Proof. red; reflexivity. Qed.

Lemma unchanged_dom : forall h h' p, unchanged h h' -> In p (dom h) -> In p (dom h').
Proof.
  intros h h' p U H. destruct (dom_lookup _ _ H) as [ob E]. rewrite <- (U p H) in E. eauto using lookup_dom.
Qed.

Lemma unchanged_trans : forall a b c, unchanged a b -> unchanged b c -> unchanged a c.
Proof.
  intros a b c U1 U2 p H. rewrite (U2 p (unchanged_dom _ _ _ U1 H)). auto.
Qed.

Lemma unchanged_set_new : forall h0 h o ob, unchanged h0 h -> ~ In o (dom h0) -> unchanged h0 (set_obj h o ob).
Proof.
  intros h0 h o ob U N p H. rewrite lookup_set_other; [auto|]. intro; subst; contradiction.
Qed.

Lemma unchanged_alloc : forall h ob, unchanged h (fst (alloc h ob)).
Proof.
  intros h ob p H. unfold alloc. cbn [fst]. change ((fresh h, ob) :: h) with (set_obj h (fresh h) ob).
  apply lookup_set_other. intro E. subst. now apply (fresh_not_in h).
Qed.

Lemma reach_trans : forall h a b c, reach h a b -> reach h b c -> reach h a c.
Proof. induction 1; intros; eauto using reach. Qed.

Lemma reach_closed : forall h (S : nat -> Prop),
  (forall q ob q', S q -> lookup h q = Some ob -> In q' (refs_of ob) -> S q') ->
  forall r p, reach h r p -> S r -> S p.
Proof. intros h S C r p R. induction R; intros; eauto. Qed.

Lemma reach_unchanged : forall h h' r p, wf_heap h -> In r (dom h) -> unchanged h h' ->
  (reach h' r p <-> reach h r p).
Proof.
  intros h h' r p W D U. split; intros R; revert D; induction R as [r|r ob q p E I R IH]; intros D; try constructor.
  - rewrite (U r D) in E. eapply reach_step; [exact E | exact I | apply IH; eapply W; eauto].
  - eapply reach_step; [rewrite (U r D); exact E | exact I | apply IH; eapply W; eauto].
Qed.

Lemma refs_of_inst : forall c a q, In q (refs_of (OInst c a)) <-> exists k v, In (k, v) a /\ In q (pv_refs v).
Proof.
  intros c a q. unfold refs_of; simpl. rewrite in_flat_map. split.
  - intros [v [I Q]]. apply in_map_iff in I. destruct I as [[k v'] [E I]]. simpl in E; subst. eauto.
  - intros [k [v [I Q]]]. exists v. split; auto. apply in_map_iff. exists (k, v); auto.
Qed.
Lemma refs_of_dict : forall a q, In q (refs_of (ODict a)) <-> exists k v, In (k, v) a /\ In q (pv_refs v).
Proof. intros a q. apply (refs_of_inst 0%Z a q). Qed.
Lemma refs_of_list : forall l q, In q (refs_of (OList l)) <-> exists v, In v l /\ In q (pv_refs v).
Proof. intros l q. unfold refs_of; simpl. apply in_flat_map. Qed.

Lemma aget_in : forall d k v, aget d k = Some v -> In (k, v) d.
Proof.
  induction d as [|[k' v'] r IH]; simpl; intros k v H; [discriminate|].
  destruct (Z.eqb k' k) eqn:E; [apply Z.eqb_eq in E; inversion H; subst; auto | right; auto].
Qed.
Lemma aset_in : forall d k v k1 v1, In (k1, v1) (aset d k v) -> In (k1, v1) d \/ (k1, v1) = (k, v).
Proof.
  induction d as [|[k' v'] r IH]; simpl; intros k v k1 v1 H.
  - destruct H as [H|[]]; auto.
  - destruct (Z.eqb k' k) eqn:E.
    + apply Z.eqb_eq in E. subst. destruct H as [H|H]; [right; auto | left; auto].
    + destruct H as [H|H]; [left; auto|]. destruct (IH _ _ _ _ H); auto.
Qed.
Lemma adel_in : forall d k k1 v1, In (k1, v1) (adel d k) -> In (k1, v1) d.
Proof. intros d k k1 v1 I. unfold adel in I. apply filter_In in I. apply I. Qed.

Lemma as_refs_in : forall l rs, as_refs l = Some rs -> forall r, In r rs -> In (PRef r) l.
Proof.
  induction l as [|[a|o] l IH]; simpl; intros rs H r I.
  - inversion H; subst. inversion I.
  - discriminate.
  - destruct (as_refs l) as [r'|] eqn:E; [|discriminate]. inversion H; subst.
    destruct I as [<-|I]; [auto | right; eapply IH; eauto].
Qed.

(* every object that a value / a list / an attribute dict / an object refers to satisfies P *)
Definition allv (P : nat -> Prop) (v : pv) : Prop := forall q, In q (pv_refs v) -> P q.
Definition alll (P : nat -> Prop) (l : list pv) : Prop := forall v, In v l -> allv P v.
Definition alla (P : nat -> Prop) (d : list (Z * pv)) : Prop := forall k v, In (k, v) d -> allv P v.
Definition allo (P : nat -> Prop) (ob : obj) : Prop := forall q, In q (refs_of ob) -> P q.

Lemma allv_atom {P a} : allv P (PAtom a).
Proof. intros q []. Qed.
Lemma allv_ref {P o} : P o <-> allv P (PRef o).
Proof. split; [intros H q [<-|[]]; exact H | intros H; apply H; left; reflexivity]. Qed.

Lemma allo_inst {P} c a : alla P a <-> allo P (OInst c a).
Proof.
  split.
  - intros G q I. apply refs_of_inst in I. destruct I as [k [v [I Q]]]. eapply G; eauto.
  - intros G k v I q Q. apply G. apply refs_of_inst. eauto.
Qed.
(* a dict refers to what an instance with the same attribute list refers to *)
Lemma allo_dict {P a} : alla P a <-> allo P (ODict a).
Proof. apply (allo_inst 0%Z a). Qed.
Lemma allo_list {P l} : alll P l <-> allo P (OList l).
Proof.
  split.
  - intros G q I. apply refs_of_list in I. destruct I as [v [I Q]]. eapply G; eauto.
  - intros G v I q Q. apply G. apply refs_of_list. eauto.
Qed.

Lemma alla_nil {P} : alla P [].
Proof. intros k v []. Qed.
Lemma alla_cons {P k v d} : allv P v -> alla P d -> alla P ((k, v) :: d).
Proof. intros Gv Gd k1 v1 [E|I]; [inversion E; subst; auto | eapply Gd; eauto]. Qed.
Lemma alla_aget {P d k v} : alla P d -> aget d k = Some v -> allv P v.
Proof. intros G E. eapply G, aget_in, E. Qed.
Lemma alla_aset {P d k v} : alla P d -> allv P v -> alla P (aset d k v).
Proof. intros G Gv k1 v1 I. apply aset_in in I. destruct I as [I|I]; [eapply G; eauto | inversion I; subst; auto]. Qed.
Lemma alll_refs {P xs rs} : alll P xs -> as_refs xs = Some rs -> forall r, In r rs -> P r.
Proof. intros G E r I. apply allv_ref, G. eapply as_refs_in; eauto. Qed.

Lemma as_ref_all {P : nat -> Prop} {v r} : allv P v -> as_ref v = Some r -> P r.
Proof. destruct v as [a|o]; intros G E; inversion E; subst. apply allv_ref, G. Qed.

(* the edges of h lead from P-objects to Q-objects, and Q-objects are P-objects: reading through a P-object gives
   Q-values.  wf_heap, "new to h0" and "inside the footprint" are three instances. *)
Definition closed (h : heap) (P Q : nat -> Prop) : Prop :=
  (forall q, Q q -> P q) /\ forall q ob, P q -> lookup h q = Some ob -> allo Q ob.

Lemma closed_reach {h P Q r p} : closed h P Q -> reach h r p -> P r -> P p.
Proof. intros [QP C]. apply reach_closed. intros q ob q' Pq E I. exact (QP _ (C q ob Pq E q' I)). Qed.

Lemma closed_getattr {h P Q o a v} : closed h P Q -> P o -> getattr h o a = Some v -> allv Q v.
Proof.
  intros [_ C] G E. unfold getattr in E. destruct (lookup h o) as [[| |c attrs]|] eqn:L; try discriminate.
  eapply alla_aget; [|exact E]. apply (allo_inst c), (C o); auto.
Qed.
Lemma closed_get_list {h P Q o l} : closed h P Q -> P o -> get_list h o = Some l -> alll Q l.
Proof.
  intros [_ C] G E. unfold get_list in E. destruct (lookup h o) as [[l'| |]|] eqn:L; try discriminate.
  inversion E; subst. apply allo_list, (C o); auto.
Qed.
Lemma closed_get_dict {h P Q o d} : closed h P Q -> P o -> get_dict h o = Some d -> alla Q d.
Proof.
  intros [_ C] G E. unfold get_dict in E. destruct (lookup h o) as [[|d'|]|] eqn:L; try discriminate.
  inversion E; subst. apply allo_dict, (C o); auto.
Qed.
Lemma closed_attr_list {h P Q o a l xs} : closed h P Q -> P o -> attr_list h o a = Some (l, xs) -> Q l /\ alll Q xs.
Proof.
  intros C G E. unfold attr_list in E.
  destruct (getattr h o a) as [[?|l']|] eqn:E1; try discriminate. simpl in E.
  destruct (get_list h l') as [xs'|] eqn:E2; [|discriminate]. inversion E; subst.
  pose proof (proj2 allv_ref (closed_getattr C G E1)) as Gl. split; [exact Gl|].
  exact (closed_get_list C (proj1 C _ Gl) E2).
Qed.
(* the shape of lib_blocks (library.blocks) and of entry_fields (entry.fields) *)
Lemma closed_attr_refs {h P Q o a rs} : closed h P Q -> P o ->
  (do lx <- attr_list h o a; as_refs (snd lx)) = Some rs -> forall r, In r rs -> Q r.
Proof.
  intros C G E. destruct (attr_list h o a) as [[l xs]|] eqn:E1; [|discriminate].
  destruct (closed_attr_list C G E1) as [_ Gx]. exact (alll_refs Gx E).
Qed.

Lemma wf_closed : forall h, wf_heap h -> closed h (fun _ => True) (fun q => In q (dom h)).
Proof. intros h W. split; [auto|]. intros q ob _ E q' I. eapply W; eauto. Qed.
Lemma wf_set : forall hc o ob, wf_heap hc -> allo (fun q => In q (dom hc)) ob -> wf_heap (set_obj hc o ob).
Proof.
  intros hc o ob W R p ob' q E I. rewrite lookup_set in E. apply dom_set. destruct (Nat.eqb o p) eqn:Eq.
  - inversion E; subst. right; auto.
  - right. eapply W; eauto.
Qed.

Notation good := shares_nothing.
(* r exists in h and nothing reachable from it is an object of the older heap h0 *)
Definition goodr (h0 h : heap) (r : nat) : Prop := In r (dom h) /\ good h0 h r.

Lemma good_new : forall h0 hc p, good h0 hc p -> ~ In p (dom h0).
Proof. intros h0 hc p G. apply G. constructor. Qed.

Lemma good_closed : forall h0 hc, wf_heap hc -> closed hc (goodr h0 hc) (goodr h0 hc).
Proof. intros h0 hc W. split; [auto|]. intros p ob [_ G] E q I. split; [eapply W; eauto|].
  intros p' R. apply G. eapply reach_step; eauto.
Qed.

Lemma good_weaken : forall h0 h1 hc p, (forall q, In q (dom h0) -> In q (dom h1)) -> good h1 hc p -> good h0 hc p.
Proof. intros h0 h1 hc p S G p' R I. apply (G p' R). auto. Qed.

(* h0: the heap the middleware was called on; hc: the heap now *)
Definition st_ok (h0 hc : heap) : Prop := wf_heap hc /\ unchanged h0 hc.

Lemma st_ok_refl : forall h, wf_heap h -> st_ok h h.
Proof. intros; split; [auto|apply unchanged_refl]. Qed.

Lemma unchanged_goodr : forall h0 h h' r, wf_heap h -> unchanged h h' -> goodr h0 h r -> goodr h0 h' r.
Proof.
  intros h0 h h' r W U [D G]. split; [eauto using unchanged_dom|].
  intros p R. apply G. apply (reach_unchanged h h' r p W D U). exact R.
Qed.

(* Straight-line code over a region.  The code starts in a heap h in which a set R of objects is closed under the edges; it may write to the objects of R
   and to objects it allocates itself, and whatever it stores refers to such objects only.
   rgn: those objects;  rinv: the invariant of such code in the current heap hc;  robj: a region object that exists
   in hc;  rext: one more step.  Two uses: R = the objects new with respect to an older heap h0 (Library(blocks),
   resolving string references, the writer - their results are then new as well: rinv_good), and R = what is reachable
   from a block b (the bodies of block middlewares).
   For the second use the statements about bodies are written with region, fp_inv, regr, regv, rega and fp_ext (defined
   further down, spelled out in full): these ARE rgn, rinv, robj, allv (robj ..), alla (robj ..) and rext at
   R := reach h b, term for term, so every lemma below applies to them as it stands. *)
Definition rgn (R : nat -> Prop) (h : heap) (q : nat) : Prop := R q \/ ~ In q (dom h).
Definition rinv (R : nat -> Prop) (h hc : heap) : Prop :=
  wf_heap hc /\ (forall p, In p (dom h) -> In p (dom hc))
  /\ (forall p, In p (dom h) -> ~ R p -> lookup hc p = lookup h p)
  /\ (forall q ob q', rgn R h q -> lookup hc q = Some ob -> In q' (refs_of ob) -> rgn R h q').
Definition robj (R : nat -> Prop) (h hc : heap) (q : nat) : Prop := In q (dom hc) /\ rgn R h q.
Definition rext (R : nat -> Prop) (h hc h1 : heap) : Prop := rinv R h h1 /\ (forall p, In p (dom hc) -> In p (dom h1)).

Lemma rinv_dom {R h hc} : rinv R h hc -> forall p, In p (dom h) -> In p (dom hc).
Proof. intros (_ & D & _). exact D. Qed.

Lemma rinv_init {R h} : wf_heap h -> closed h R R -> rinv R h h.
Proof.
  intros W [_ C]. repeat split; auto.
  intros q ob q' [Rq|N] E I; [left; exact (C q ob Rq E q' I) | exfalso; apply N; eauto using lookup_dom].
Qed.

Lemma rinv_closed {R h hc} : rinv R h hc -> closed hc (rgn R h) (robj R h hc).
Proof.
  intros (W & _ & _ & C). split; [intros q [_ Rq]; exact Rq|].
  intros q ob Rq E q' I. split; [eapply W; eauto | eapply C; eauto].
Qed.

Lemma rext_refl {R h hc} : rinv R h hc -> rext R h hc hc.
Proof. intros; split; auto. Qed.
Lemma rext_trans {R h h1 h2 h3} : rext R h h1 h2 -> rext R h h2 h3 -> rext R h h1 h3.
Proof. intros [_ M1] [I2 M2]. split; auto. Qed.
Lemma rext_robj {R h hc h1} : rext R h hc h1 -> forall q, robj R h hc q -> robj R h h1 q.
Proof. intros [_ M] q [D Rq]. split; auto. Qed.

(* what is known of a value or an attribute dict holds in every later heap of the same code *)
Lemma allv_rext {R h hc h1 v} : rext R h hc h1 -> allv (robj R h hc) v -> allv (robj R h h1) v.
Proof. intros X G q I. exact (rext_robj X q (G q I)). Qed.
Lemma alla_rext {R h hc h1 d} : rext R h hc h1 -> alla (robj R h hc) d -> alla (robj R h h1) d.
Proof. intros X G k v I. exact (allv_rext X (G k v I)). Qed.

(* the objects written are given by their place in the region alone: that they exist shows in the success of the write *)
Lemma set_rext {R h hc o ob} : rinv R h hc -> rgn R h o -> allo (robj R h hc) ob -> rext R h hc (set_obj hc o ob).
Proof.
  intros (W & D & F & C) Ro Go. split; [|intros p I; simpl; auto]. repeat split.
  - apply wf_set; auto. intros q I. apply Go; auto.
  - intros p I. simpl. right. auto.
  - intros p I N. rewrite lookup_set_other; auto. intro; subst. destruct Ro; contradiction.
  - intros q ob' q' Rq E I. rewrite lookup_set in E. destruct (Nat.eqb o q).
    + inversion E; subst. apply Go; auto.
    + eapply C; eauto.
Qed.

Lemma alloc_rext {R h hc ob h1 n} : rinv R h hc -> alloc hc ob = (h1, n) -> allo (robj R h hc) ob ->
  rext R h hc h1 /\ robj R h h1 n.
Proof.
  intros I A G. unfold alloc in A. inversion A; subst; clear A.
  assert (N : rgn R h (fresh hc)).
  { right. intro X. apply (fresh_not_in hc). apply (rinv_dom I), X. }
  split; [apply set_rext; auto | split; [simpl; auto | exact N]].
Qed.

Lemma setattr_rext {R h hc o a v h1} : rinv R h hc -> rgn R h o -> allv (robj R h hc) v ->
  setattr hc o a v = Some h1 -> rext R h hc h1.
Proof.
  intros I Ro Gv E. unfold setattr in E. destruct (lookup hc o) as [[| |c attrs]|] eqn:L; try discriminate.
  inversion E; subst; clear E. apply set_rext; [exact I | exact Ro|].
  apply allo_inst, alla_aset; [|exact Gv]. apply (allo_inst c). exact (proj2 (rinv_closed I) o _ Ro L).
Qed.

(* A new block object: Block.__init__ gives it a fresh empty parser_metadata dict.  What the other attributes hold is
   asked of the heap BEFORE the two allocations. *)
Lemma alloc_block_rext {R h hc c sl raw rest h1 md h2 n} :
  rinv R h hc -> allv (robj R h hc) sl -> allv (robj R h hc) raw -> alla (robj R h hc) rest ->
  alloc hc (ODict []) = (h1, md) ->
  alloc h1 (OInst c ((A_start_line_in_file, sl) :: (A_raw, raw) :: (A_parser_metadata, PRef md) :: rest)) = (h2, n) ->
  rext R h hc h2 /\ robj R h h2 n.
Proof.
  intros I Gs Gr Gt A1 A2. destruct (alloc_rext I A1 (proj1 allo_dict alla_nil)) as [X1 Gmd].
  destruct (alloc_rext (proj1 X1) A2) as [X2 Gn]; [|exact (conj (rext_trans X1 X2) Gn)].
  apply allo_inst. repeat apply alla_cons.
  - exact (allv_rext X1 Gs).
  - exact (allv_rext X1 Gr).
  - apply allv_ref, Gmd.
  - exact (alla_rext X1 Gt).
Qed.

Lemma good_robj {h0 hs q} : goodr h0 hs q -> robj (goodr h0 hs) hs hs q.
Proof. intros G. exact (conj (proj1 G) (or_introl G)). Qed.

Lemma rinv_good : forall h0 hs hc, st_ok h0 hs -> rinv (goodr h0 hs) hs hc ->
  st_ok h0 hc /\ forall q, robj (goodr h0 hs) hs hc q -> goodr h0 hc q.
Proof.
  intros h0 hs hc [W U] I. pose proof I as (W' & D & F & _).
  assert (N : forall q, rgn (goodr h0 hs) hs q -> ~ In q (dom h0)).
  { intros q [[_ G]|N] X; [exact (good_new _ _ _ G X) | apply N; eapply unchanged_dom; eauto]. }
  split; [split; [exact W'|]|].
  - intros p Ip. rewrite F; [apply U, Ip | eapply unchanged_dom; eauto | intros [_ G]; exact (good_new _ _ _ G Ip)].
  - intros q [Dq Rq]. split; [exact Dq|]. intros p Rp. apply N. exact (closed_reach (rinv_closed I) Rp Rq).
Qed.

(* names the next bound computation of  do x <- c; k  in H; the None case is closed *)
Tactic Notation "bindn" hyp(H) ident(v) ident(e) :=
  match type of H with
  | (match ?x with Some _ => _ | None => None end) = Some _ => destruct x as [v|] eqn:e; [|discriminate H]
  end.

(* the state of Library.add's loop (heap, blocks so far, entries_by_key, strings_by_key): all of it lies in the region *)
Definition add_inv (R : nat -> Prop) (hs : heap) (st : lstate) : Prop :=
  let '(h, acc, ed, sd) := st in
  rinv R hs h /\ (forall r, In r acc -> robj R hs h r) /\ alla (robj R hs h) ed /\ alla (robj R hs h) sd.
Definition st_heap (st : lstate) : heap := let '(h, _, _, _) := st in h.

Lemma add_keyed_ok : forall R hs ie st b st', add_inv R hs st -> robj R hs (st_heap st) b -> add_keyed ie st b = Some st' ->
  add_inv R hs st' /\ (forall p, In p (dom (st_heap st)) -> In p (dom (st_heap st'))).
Proof.
  intros R hs ie [[[h acc] ed] sd] b st' (I & GA & GE & GS) Gb E. simpl in Gb. unfold add_keyed in E.
  pose proof (rinv_closed I) as C.
  destruct (getattr h b A_key) as [[k|?]|] eqn:EK; try discriminate.
  destruct (aget (if ie then ed else sd) k) as [prev|] eqn:EP.
  - bindn E sl ES. bindn E raw ER.
    destruct (alloc h (ODict [])) as [h1 md] eqn:A1. destruct (alloc h1 _) as [h2 w] eqn:A2. inversion E; subst; clear E.
    assert (Gprev : allv (robj R hs h) prev) by (destruct ie; [exact (alla_aget GE EP) | exact (alla_aget GS EP)]).
    destruct (alloc_block_rext I (closed_getattr C (proj2 Gb) ES) (closed_getattr C (proj2 Gb) ER)
                (alla_cons allv_atom (alla_cons (proj1 allv_ref Gb) (alla_cons allv_atom (alla_cons Gprev alla_nil)))) A1 A2)
      as [X Gw].
    simpl. split; [|apply X]. split; [apply X|]. split; [|split].
    + intros r0 [<-|I0]; [exact Gw | exact (rext_robj X _ (GA r0 I0))].
    + exact (alla_rext X GE).
    + exact (alla_rext X GS).
  - inversion E; subst; clear E. simpl. split; [|auto].
    split; [exact I|]. split; [|split].
    + intros r0 [<-|I0]; auto.
    + destruct ie; auto. apply alla_aset; auto. apply allv_ref, Gb.
    + destruct ie; auto. apply alla_aset; auto. apply allv_ref, Gb.
Qed.

Lemma add_one_ok : forall R hs st b st', add_inv R hs st -> robj R hs (st_heap st) b -> add_one st b = Some st' ->
  add_inv R hs st' /\ (forall p, In p (dom (st_heap st)) -> In p (dom (st_heap st'))).
Proof.
  intros R hs st b st' I Gb E. unfold add_one in E. destruct st as [[[h acc] ed] sd] eqn:Est.
  assert (P : forall st1, Some (h, b :: acc, ed, sd) = Some st1 ->
              add_inv R hs st1 /\ (forall p, In p (dom h) -> In p (dom (st_heap st1)))).
  { intros st1 E1. inversion E1; subst. simpl. split; [|auto].
    destruct I as (S & GA & GE & GS). split; [exact S|]. split; [|split]; auto.
    intros r0 [<-|Ir]; auto. }
  destruct (class_of h b) as [c|]; [|apply P; auto].
  destruct (Z.eqb c C_Entry); [rewrite <- Est in *; eapply add_keyed_ok; eauto|].
  destruct (Z.eqb c C_String); [rewrite <- Est in *; eapply add_keyed_ok; eauto|].
  apply P; auto.
Qed.

Lemma add_all_ok : forall R hs bs st st', add_inv R hs st -> (forall b, In b bs -> robj R hs (st_heap st) b) ->
  add_all st bs = Some st' -> add_inv R hs st'.
Proof.
  intros R hs bs. induction bs as [|b r IH]; simpl; intros st st' I G E.
  - inversion E; subst. exact I.
  - bindn E st1 E1. destruct (add_one_ok R hs st b st1 I (G b (or_introl eq_refl)) E1) as [I1 M1].
    apply (IH st1 st' I1); [|exact E]. intros b' Ib. destruct (G b' (or_intror Ib)) as [Db Rb]. split; auto.
Qed.

Lemma new_library_reg : forall R hs h blocks h' lib', rinv R hs h -> (forall b, In b blocks -> robj R hs h b) ->
  new_library h blocks = Some (h', lib') -> rinv R hs h' /\ robj R hs h' lib'.
Proof.
  intros R hs h blocks h' lib' I G E. unfold new_library in E.
  destruct (add_all (h, [], [], []) blocks) as [[[[h1 acc] ed] sd]|] eqn:EA; [|discriminate].
  assert (I0 : add_inv R hs (h, [], [], [])).
  { simpl. split; [exact I|]. split; [|split]; try apply alla_nil. intros r []. }
  destruct (add_all_ok R hs blocks _ _ I0 G EA) as (I1 & GA & GE & GS).
  destruct (alloc h1 (OList (map PRef (rev acc)))) as [h2 bl] eqn:A2.
  destruct (alloc h2 (ODict ed)) as [h3 e] eqn:A3.
  destruct (alloc h3 (ODict sd)) as [h4 s] eqn:A4.
  destruct (alloc h4 _) as [h5 lib] eqn:A5.
  inversion E; subst; clear E.
  destruct (alloc_rext I1 A2) as [X2 Gbl].
  { apply allo_list. intros v Iv. apply in_map_iff in Iv. destruct Iv as [r [<- Ir]]. apply allv_ref, GA, in_rev, Ir. }
  destruct (alloc_rext (proj1 X2) A3 (proj1 allo_dict (alla_rext X2 GE))) as [X3 Ge].
  destruct (alloc_rext (proj1 X3) A4 (proj1 allo_dict (alla_rext (rext_trans X2 X3) GS))) as [X4 Gs].
  destruct (alloc_rext (proj1 X4) A5) as [X5 Glib]; [|exact (conj (proj1 X5) Glib)].
  apply allo_inst. repeat apply alla_cons; try apply alla_nil; apply allv_ref.
  - exact (rext_robj (rext_trans X3 X4) _ Gbl).
  - exact (rext_robj X4 _ Ge).
  - exact Gs.
Qed.

Lemma new_library_ok : forall h0 h blocks h' lib', st_ok h0 h -> (forall b, In b blocks -> goodr h0 h b) ->
  new_library h blocks = Some (h', lib') -> st_ok h0 h' /\ goodr h0 h' lib'.
Proof.
  intros h0 h blocks h' lib' S G E.
  destruct (new_library_reg _ h h blocks h' lib' (rinv_init (proj1 S) (good_closed h0 h (proj1 S)))
              (fun b Ib => good_robj (G b Ib)) E) as [I Rl].
  destruct (rinv_good h0 h h' S I) as [S' Gd]. exact (conj S' (Gd _ Rl)).
Qed.

Lemma resolve_fields_reg : forall R hs bare sd fs hc keys h1 keys',
  rinv R hs hc -> alla (robj R hs hc) sd -> (forall f, In f fs -> rgn R hs f) -> alll (robj R hs hc) keys ->
  resolve_fields bare sd hc keys fs = Some (h1, keys') -> rext R hs hc h1 /\ alll (robj R hs h1) keys'.
Proof.
  intros R hs bare sd fs. induction fs as [|f r IH]; simpl; intros hc keys h1 keys' I Gsd Gf Gk E.
  - inversion E; subst. exact (conj (rext_refl I) Gk).
  - assert (Gr : forall f0, In f0 r -> rgn R hs f0) by (intros; apply Gf; auto).
    destruct (getattr hc f A_value) as [[a|?]|] eqn:EV; try discriminate; [|eapply IH; eauto].
    destruct (existsb (Z.eqb a) bare); [|eapply IH; eauto].
    destruct (aget sd a) as [[?|s]|] eqn:ES; try discriminate; [|eapply IH; eauto].
    bindn E sv ESV. bindn E h2 EW. bindn E k EK.
    pose proof (proj2 allv_ref (alla_aget Gsd ES)) as Gs.
    pose proof (setattr_rext I (Gf f (or_introl eq_refl)) (closed_getattr (rinv_closed I) (proj2 Gs) ESV) EW) as X2.
    pose proof (closed_getattr (rinv_closed (proj1 X2)) (Gf f (or_introl eq_refl)) EK) as Gkk.
    destruct (IH h2 (keys ++ [k]) h1 keys' (proj1 X2) (alla_rext X2 Gsd) Gr) as [X3 G3]; [|exact E|].
    + intros k0 I0. apply in_app_or in I0. destruct I0 as [I0|[<-|[]]]; [exact (allv_rext X2 (Gk k0 I0)) | exact Gkk].
    + exact (conj (rext_trans X2 X3) G3).
Qed.

Lemma resolve_entries_reg : forall R hs bare kres sdref bs hc h2,
  rinv R hs hc -> rgn R hs sdref -> (forall b, In b bs -> rgn R hs b) ->
  resolve_entries bare kres sdref hc bs = Some h2 -> rinv R hs h2.
Proof.
  intros R hs bare kres sdref bs. induction bs as [|b r IH]; cbn [resolve_entries]; intros hc h2 I Gsd Gb E.
  - inversion E; subst. exact I.
  - assert (Gr : forall b0, In b0 r -> rgn R hs b0) by (intros; apply Gb; right; assumption).
    destruct (class_of hc b) as [c|]; [|eapply IH; eauto].
    destruct (Z.eqb c C_Entry); [|eapply IH; eauto].
    bindn E sd ESD. bindn E fl EF. destruct fl as [fl xs]. cbn [snd] in E.
    bindn E fs EFS. bindn E hk ERF. destruct hk as [h1 keys].
    pose proof (rinv_closed I) as C. pose proof (Gb b (or_introl eq_refl)) as Gbb.
    destruct (fun A B => resolve_fields_reg R hs bare sd fs hc [] h1 keys I (closed_get_dict C Gsd ESD) A B ERF) as [X1 Gk].
    { intros f If. exact (proj2 (alll_refs (proj2 (closed_attr_list C Gbb EF)) EFS f If)). }
    { intros k []. }
    destruct keys as [|k0 ks]; [exact (IH h1 h2 (proj1 X1) Gsd Gr E)|].
    destruct (alloc h1 (OList (k0 :: ks))) as [h3 rl] eqn:EA. bindn E mdv EM. bindn E md EMD. bindn E d EDD.
    destruct (alloc_rext (proj1 X1) EA (proj1 allo_list Gk)) as [X3 Grl]. pose proof (rinv_closed (proj1 X3)) as C3.
    pose proof (as_ref_all (closed_getattr C3 Gbb EM) EMD) as Gmd.
    refine (IH _ h2 (proj1 (set_rext (proj1 X3) (proj2 Gmd) _)) Gsd Gr E).
    apply allo_dict, alla_aset; [exact (closed_get_dict C3 (proj2 Gmd) EDD) | apply allv_ref, Grl].
Qed.

Lemma st_ok_no_alias : forall h h' r, st_ok h h' -> goodr h h' r -> no_alias h h' r.
Proof. intros h h' r [W U] [D G]. repeat split; auto. Qed.

(* the selection by indices inside sort_blocks_mw (Model/HeapMw.v), which has no name there: the statement repeats its text *)
Lemma perm_sel_in : forall (cr : list nat) perm sorted,
  fold_right (fun i acc => match acc with Some a => match nth_error cr i with Some x => Some (x :: a) | None => None end
                                     | None => None end) (Some []) perm = Some sorted ->
  forall x, In x sorted -> In x cr.
Proof.
  intros cr perm. induction perm as [|i r IH]; simpl; intros sorted E x I.
  - inversion E; subst. inversion I.
  - destruct (fold_right _ (Some []) r) as [a|] eqn:EF; [|discriminate].
    destruct (nth_error cr i) as [y|] eqn:EN; [|discriminate]. inversion E; subst.
    destruct I as [<-|I]; [eapply nth_error_In; eauto | eapply IH; eauto].
Qed.

Section Framework.
  Variable DC : heap -> nat -> heap * nat.
  Hypothesis DCok : dc_contract DC.

  Lemma dc_goodr : forall h0 h r h1 r', st_ok h0 h -> In r (dom h) -> DC h r = (h1, r') ->
    st_ok h0 h1 /\ goodr h0 h1 r'.
  Proof.
    intros h0 h r h1 r' [W U] D E. destruct (DCok h r h1 r' W D E) as (W1 & U1 & D1 & N1).
    split; [split; [auto | eapply unchanged_trans; eauto]|]. split; [auto|].
    intros p R I. apply (N1 p R). eapply unchanged_dom; eauto.
  Qed.

  Lemma block_loop_ok : forall bd h0 lib, footprint_ok bd -> forall bs hc acc h' acc',
    st_ok h0 hc -> In lib (dom hc) -> (forall b, In b bs -> In b (dom hc)) -> (forall r, In r acc -> goodr h0 hc r) ->
    block_loop DC false bd lib hc acc bs = Some (h', acc') ->
    st_ok h0 h' /\ (forall r, In r acc' -> goodr h0 h' r).
  Proof.
    intros bd h0 lib F bs. induction bs as [|b rest IH]; simpl; intros hc acc h' acc' S L B A E.
    - inversion E; subst. auto.
    - destruct (DC hc b) as [h1 b'] eqn:ED.
      destruct (bd h1 lib b') as [[h2 res]|] eqn:EB; [|discriminate].
      pose proof S as [W U].
      destruct (DCok hc b h1 b' W (B b (or_introl eq_refl)) ED) as (W1 & U1 & D1 & N1).
      destruct (F h1 lib b' h2 res W1 (unchanged_dom _ _ _ U1 L) D1 EB) as (W2 & DD & F2 & F3).
      (* the body only writes to what is reachable from the copy b', and none of that is an object of hc *)
      assert (U12 : unchanged hc h2).
      { intros p Hp. rewrite F2; [apply U1; auto | eapply unchanged_dom; eauto | intro R; apply (N1 p R Hp)]. }
      assert (S2 : st_ok h0 h2) by (split; [auto | eapply unchanged_trans; eauto]).
      apply (IH h2 (acc ++ result_blocks res) h' acc'); auto.
      + eapply unchanged_dom; eauto.
      + intros b0 I. eapply unchanged_dom; eauto.
      + intros r I. apply in_app_or in I. destruct I as [I|I].
        * exact (unchanged_goodr h0 hc h2 r W U12 (A r I)).
        * destruct (F3 r I) as [Dr Rr]. split; [auto|]. intros p R I0.
          destruct (Rr p R) as [R1|N].
          -- apply (N1 p R1). eapply unchanged_dom; eauto.
          -- apply N. eapply unchanged_dom; [exact U1|]. eapply unchanged_dom; eauto.
  Qed.

  (* BlockMiddleware(allow_inplace_modification=False).transform *)
  Lemma copy_mode_ok : forall bd h lib h' lib', footprint_ok bd -> wf_heap h -> In lib (dom h) ->
    transform_block_mw DC false bd h lib = Some (h', lib') -> no_alias h h' lib'.
  Proof.
    intros bd h lib h' lib' F W L E. unfold transform_block_mw in E.
    destruct (lib_blocks h lib) as [bs|] eqn:EB; [|discriminate].
    destruct (block_loop DC false bd lib h [] bs) as [[h1 acc]|] eqn:EL; [|discriminate]. simpl in E.
    destruct (block_loop_ok bd h lib F bs h [] h1 acc (st_ok_refl h W) L (closed_attr_refs (wf_closed h W) Logic.I EB)
                (fun r (I : In r []) => match I with end) EL) as [S1 G1].
    destruct (new_library_ok h h1 acc h' lib' S1 G1 E) as (S2 & G2).
    apply st_ok_no_alias; auto.
  Qed.

  (* LibraryMiddleware(allow_inplace_modification=False).transform *)
  Lemma library_mw_ok : forall h lib h' lib', wf_heap h -> In lib (dom h) ->
    library_mw DC false h lib = Some (h', lib') -> no_alias h h' lib'.
  Proof.
    intros h lib h' lib' W L E. unfold library_mw in E. destruct (DC h lib) as [h1 l1] eqn:ED. inversion E; subst.
    destruct (dc_goodr h h lib h' lib' (st_ok_refl h W) L ED) as (S1 & G1). apply st_ok_no_alias; auto.
  Qed.

  (* SortBlocksByTypeAndKeyMiddleware.transform *)
  Lemma sort_blocks_ok : forall perm h lib h' lib', wf_heap h -> In lib (dom h) ->
    sort_blocks_mw DC perm h lib = Some (h', lib') -> no_alias h h' lib'.
  Proof.
    intros perm h lib h' lib' W L E. unfold sort_blocks_mw in E.
    destruct (getattr h lib A_blocks) as [[?|bl]|] eqn:E1; simpl in E; try discriminate.
    assert (Dbl : In bl (dom h)) by exact (proj2 allv_ref (closed_getattr (wf_closed h W) Logic.I E1)).
    destruct (DC h bl) as [h1 bl'] eqn:ED.
    destruct (dc_goodr h h bl h1 bl' (st_ok_refl h W) Dbl ED) as (S1 & G1).
    destruct (get_list h1 bl') as [cs|] eqn:E2; [|discriminate].
    destruct (as_refs cs) as [cr|] eqn:E3; [|discriminate].
    match type of E with context [fold_right ?f ?a perm] => destruct (fold_right f a perm) as [sorted|] eqn:E4 end;
      [|discriminate].
    pose proof (alll_refs (closed_get_list (good_closed h h1 (proj1 S1)) G1 E2) E3) as Gc.
    destruct (new_library_ok h h1 sorted h' lib' S1) as (S2 & G2); auto.
    - intros b I. apply Gc. eapply perm_sel_in; eauto.
    - apply st_ok_no_alias; auto.
  Qed.

  (* ResolveStringReferencesMiddleware(allow_inplace_modification=False).transform *)
  Lemma resolve_ok : forall bare kres h lib h' lib', wf_heap h -> In lib (dom h) ->
    resolve_mw DC false bare kres h lib = Some (h', lib') -> no_alias h h' lib'.
  Proof.
    intros bare kres h lib h' lib' W L E. unfold resolve_mw in E.
    destruct (DC h lib) as [h1 l1] eqn:ED.
    destruct (dc_goodr h h lib h1 l1 (st_ok_refl h W) L ED) as (S1 & G1).
    pose proof (rinv_init (proj1 S1) (good_closed h h1 (proj1 S1))) as I1. pose proof (rinv_closed I1) as C.
    bindn E bs EB. destruct (getattr h1 l1 A_strings_by_key) as [[?|sdref]|] eqn:ES; simpl in E; try discriminate.
    bindn E h2 ER. inversion E; subst.
    assert (I2 : rinv (goodr h h1) h1 h').
    { apply (resolve_entries_reg _ h1 bare kres sdref bs h1 h' I1); [| |exact ER].
      - exact (proj2 (proj2 allv_ref (closed_getattr C (or_introl G1) ES))).
      - intros b Ib. exact (proj2 (closed_attr_refs C (or_introl G1) EB b Ib)). }
    destruct (rinv_good h h1 h' S1 I2) as [S2 Gd]. apply st_ok_no_alias; [exact S2|].
    exact (Gd lib' (conj (rinv_dom I2 _ (proj1 G1)) (or_introl G1))).
  Qed.

  Lemma run_mw_ok : forall m h lib h' lib', mw_ok m -> wf_heap h -> In lib (dom h) ->
    run_mw DC m h lib = Some (h', lib') -> no_alias h h' lib'.
  Proof.
    intros m h lib h' lib' [C F] W L E. destruct m as [i bd|i|i bare k|perm]; simpl in *; subst.
    - eapply copy_mode_ok; eauto.
    - eapply library_mw_ok; eauto.
    - eapply resolve_ok; eauto.
    - eapply sort_blocks_ok; eauto.
  Qed.

  (* the empty stack is excluded: it returns the library it was given, which is the input itself *)
  Lemma run_stack_ok : forall ms h lib h' lib', Forall mw_ok ms -> ms <> [] -> wf_heap h -> In lib (dom h) ->
    run_stack DC ms h lib = Some (h', lib') -> no_alias h h' lib'.
  Proof.
    induction ms as [|m r IH]; intros h lib h' lib' F N W L E; [contradiction|].
    simpl in E. destruct (run_mw DC m h lib) as [[h1 l1]|] eqn:E1; [|discriminate]. simpl in E.
    inversion F as [|? ? Fm Fr]; subst.
    destruct (run_mw_ok m h lib h1 l1 Fm W L E1) as (W1 & D1 & U1 & G1).
    destruct r as [|m2 r2].
    - simpl in E. inversion E; subst. repeat split; auto.
    - destruct (IH h1 l1 h' lib' Fr) as (W2 & D2 & U2 & G2); auto; [discriminate|].
      repeat split; auto.
      + eapply unchanged_trans; eauto.
      + intros p R I. apply (G2 p R). eapply unchanged_dom; eauto.
  Qed.

  (* writer.write and write_string with the default stack *)
  Lemma writer_ok : forall a1 a2 h lib fmt h', wf_heap h -> In fmt (dom h) ->
    writer_mw DC a1 a2 h lib fmt = Some h' -> st_ok h h'.
  Proof.
    intros a1 a2 h lib fmt h' W D E. unfold writer_mw in E.
    destruct (lib_blocks h lib); [|discriminate].
    destruct (getattr h fmt A_align_field_values) as [[a|?]|]; try discriminate;
      try (inversion E; subst; apply st_ok_refl; auto).
    destruct (Z.eqb a a1); [|inversion E; subst; apply st_ok_refl; auto].
    destruct (DC h fmt) as [h1 f1] eqn:ED.
    destruct (dc_goodr h h fmt h1 f1 (st_ok_refl h W) D ED) as (S1 & G1).
    pose proof (rinv_init (proj1 S1) (good_closed h h1 (proj1 S1))) as I1.
    exact (proj1 (rinv_good h h1 h' S1 (proj1 (setattr_rext I1 (or_introl G1) allv_atom E)))).
  Qed.

  Lemma write_string_ok : forall bd a1 a2 h lib fmt h', footprint_ok bd -> wf_heap h -> In lib (dom h) -> In fmt (dom h) ->
    write_string_mw DC bd a1 a2 h lib fmt = Some h' ->
    wf_heap h' /\ input_untouched h h'
    /\ (forall p, reach h' lib p <-> reach h lib p) /\ (forall p, reach h' fmt p <-> reach h fmt p).
  Proof.
    intros bd a1 a2 h lib fmt h' F W L D E. unfold write_string_mw in E.
    destruct (transform_block_mw DC false bd h lib) as [[h1 l1]|] eqn:E1; [|discriminate]. simpl in E.
    destruct (copy_mode_ok bd h lib h1 l1 F W L E1) as (W1 & D1 & U1 & _).
    destruct (writer_ok a1 a2 h1 l1 fmt h' W1 (unchanged_dom _ _ _ U1 D) E) as [W2 U2].
    assert (U : unchanged h h') by (eapply unchanged_trans; eauto).
    split; [exact W2|]. split; [exact U|]. split; intros p; apply reach_unchanged; auto.
  Qed.
End Framework.

(* region h b = what a body working on block b may touch: the objects reachable from b in the heap h it was given,
   and objects that did not exist in h.  fp_inv: the invariant of straight-line code that stays inside. *)
Definition region (h : heap) (b q : nat) : Prop := reach h b q \/ ~ In q (dom h).
Definition fp_inv (h : heap) (b : nat) (hc : heap) : Prop :=
  wf_heap hc /\ (forall p, In p (dom h) -> In p (dom hc))
  /\ (forall p, In p (dom h) -> ~ reach h b p -> lookup hc p = lookup h p)
  /\ (forall q ob q', region h b q -> lookup hc q = Some ob -> In q' (refs_of ob) -> region h b q').
Definition regr (h : heap) (b : nat) (hc : heap) (q : nat) : Prop := In q (dom hc) /\ region h b q.
Definition regv (h : heap) (b : nat) (hc : heap) (v : pv) : Prop := forall q, In q (pv_refs v) -> regr h b hc q.
Definition rega (h : heap) (b : nat) (hc : heap) (d : list (Z * pv)) : Prop := forall k v, In (k, v) d -> regv h b hc v.

Definition fp_ext (h : heap) (b : nat) : heap -> heap -> Prop := rext (reach h b) h.

Lemma fp_init : forall h b, wf_heap h -> fp_inv h b h.
Proof.
  intros h b W. apply (rinv_init W). split; [auto|].
  intros q ob R E q' I. eapply reach_trans; [exact R|]. eapply reach_step; eauto. constructor.
Qed.

Lemma region_self : forall h b, region h b b.
Proof. intros; left; constructor. Qed.

(* what a piece of a body does to a heap hc that satisfies the invariant *)
Definition fp_fun (f : heap -> nat -> option (heap * result)) : Prop :=
  forall h b hc h' res, In b (dom h) -> fp_inv h b hc -> f hc b = Some (h', res) ->
    fp_inv h b h' /\ forall r, In r (result_blocks res) -> regr h b h' r.

Lemma fp_fun_ok : forall f, fp_fun f -> footprint_ok (fun h _ b => f h b).
Proof.
  intros f Ff h lib b h' res W L B E.
  destruct (Ff h b h h' res B (fp_init h b W) E) as [I R]. pose proof I as (W' & D & F & _).
  split; [exact W'|]. split; [exact D|]. split; [exact F|]. intros r Ir. split; [apply R, Ir|].
  intros p Rp. exact (closed_reach (rinv_closed I) Rp (proj2 (R r Ir))).
Qed.

Lemma fp_fun_if : forall (c : heap -> nat -> bool) f g, fp_fun f -> fp_fun g -> fp_fun (fun h b => if c h b then f h b else g h b).
Proof. intros c f g Ff Fg h b hc h' res B I E. destruct (c hc b); [eapply Ff | eapply Fg]; eauto. Qed.

Lemma regr_self {h b hc} : fp_inv h b hc -> In b (dom h) -> regr h b hc b.
Proof. intros I B. split; [apply (rinv_dom I), B | apply region_self]. Qed.
(* a body that returns the block it was given *)
Lemma ret_self {h b h1} : fp_inv h b h1 -> In b (dom h) ->
  fp_inv h b h1 /\ forall r, In r (result_blocks (ROne b)) -> regr h b h1 r.
Proof. intros I B. split; [exact I|]. intros r [<-|[]]. exact (regr_self I B). Qed.

Lemma fp_keep : fp_fun (fun h b => Some (h, ROne b)).
Proof. intros h b hc h' res B I E. inversion E; subst. exact (ret_self I B). Qed.

Lemma set_values_fp : forall Rg h c fs hc h1, rinv Rg h hc -> (forall f, In f fs -> rgn Rg h f) ->
  set_values hc fs c = Some h1 -> rinv Rg h h1.
Proof.
  intros Rg h c fs. induction fs as [|f r IH]; simpl; intros hc h1 I R E.
  - inversion E; subst. exact I.
  - bindn E h2 E1. apply (IH h2); [|auto|exact E]. exact (proj1 (setattr_rext I (R f (or_introl eq_refl)) allv_atom E1)).
Qed.

Lemma fp_identity : footprint_ok probe_identity.
Proof. exact (fp_fun_ok _ fp_keep). Qed.

Lemma fp_set_values : forall c, footprint_ok (probe_set_values c).
Proof.
  intros c. unfold probe_set_values. apply fp_fun_ok. repeat apply fp_fun_if; try apply fp_keep.
  - intros h b hc h' res B I E. bindn E fl EF. destruct fl as [l xs]. bindn E fs ER. bindn E h1 ES. inversion E; subst.
    destruct (closed_attr_list (rinv_closed I) (region_self h b) EF) as [_ Gx].
    assert (I1 : fp_inv h b h') by (apply (set_values_fp (reach h b) h c fs hc); auto; intros f If; apply (alll_refs Gx ER f If)).
    exact (ret_self I1 B).
  - intros h b hc h' res B I E. bindn E h1 ES. inversion E; subst.
    pose proof (setattr_rext I (region_self h b) allv_atom ES) as [I1 _]. exact (ret_self I1 B).
Qed.

Lemma fp_append_field : forall c kp, footprint_ok (probe_append_field c kp).
Proof.
  intros c kp. unfold probe_append_field. apply fp_fun_ok. apply fp_fun_if; [|apply fp_keep].
  intros h b hc h' res B I E. bindn E fl EF. destruct fl as [l xs]. cbn [fst snd] in E.
  destruct (alloc hc _) as [h1 f] eqn:EA. inversion E; subst; clear E.
  destruct (closed_attr_list (rinv_closed I) (region_self h b) EF) as [Gl Gx].
  destruct (alloc_rext I EA) as [X1 Gf].
  { apply allo_inst. repeat apply alla_cons; try apply alla_nil; apply allv_atom. }
  assert (X2 : fp_ext h b h1 (set_obj h1 l (OList (xs ++ [PRef f])))).
  { apply set_rext; [apply X1 | apply Gl|]. apply allo_list. intros v Iv. apply in_app_or in Iv. destruct Iv as [Iv|[<-|[]]].
    - exact (allv_rext X1 (Gx v Iv)).
    - apply allv_ref, Gf. }
  exact (ret_self (proj1 X2) B).
Qed.

Lemma fp_replace_metadata : forall c kp, footprint_ok (probe_replace_metadata c kp).
Proof.
  intros c kp. unfold probe_replace_metadata. apply fp_fun_ok. apply fp_fun_if; [|apply fp_keep].
  intros h b hc h' res B I E. destruct (alloc hc _) as [h1 md] eqn:EA. bindn E h2 ES. inversion E; subst; clear E.
  destruct (alloc_rext I EA) as [X1 Gm].
  { apply allo_dict, alla_cons; [apply allv_atom | apply alla_nil]. }
  pose proof (setattr_rext (proj1 X1) (region_self h b) (proj1 allv_ref Gm) ES) as [I2 _].
  exact (ret_self I2 B).
Qed.

Lemma fp_drop_strings : footprint_ok probe_drop_strings.
Proof.
  unfold probe_drop_strings. apply fp_fun_ok. apply fp_fun_if; [|apply fp_keep].
  intros h b hc h' res B I E. inversion E; subst. split; [exact I | intros r []].
Qed.

Lemma fp_add_comment : forall kp, footprint_ok (probe_add_comment kp).
Proof.
  intros kp. unfold probe_add_comment. apply fp_fun_ok. apply fp_fun_if; [|apply fp_keep].
  intros h b hc h' res B I E. destruct (alloc hc (ODict [])) as [h1 md] eqn:EA1.
  destruct (alloc h1 _) as [h2 cm] eqn:EA2. inversion E; subst; clear E.
  destruct (alloc_block_rext I allv_atom allv_atom (alla_cons allv_atom alla_nil) EA1 EA2) as [X Gc].
  split; [apply X|]. intros r [<-|[<-|[]]]; [exact (regr_self (proj1 X) B) | exact Gc].
Qed.

Lemma fp_twice : footprint_ok probe_twice.
Proof.
  unfold probe_twice. apply fp_fun_ok. apply fp_fun_if; [|apply fp_keep].
  intros h b hc h' res B I E. inversion E; subst. split; [exact I|].
  intros r [<-|[<-|[]]]; exact (regr_self I B).
Qed.

Lemma fp_same_key : forall k, footprint_ok (probe_same_key k).
Proof.
  intros k. unfold probe_same_key. apply fp_fun_ok. apply fp_fun_if; [|apply fp_keep].
  intros h b hc h' res B I E. bindn E h1 ES. inversion E; subst.
  pose proof (setattr_rext I (region_self h b) allv_atom ES) as [I1 _]. exact (ret_self I1 B).
Qed.

(* every probe body except the deliberately leaking one (7) stays within its footprint *)
Lemma probe_footprints : forall n c kp kdup, n <> 7%Z -> footprint_ok (probe_body n c kp kdup).
Proof.
  intros n c kp kdup N. unfold probe_body.
  destruct (Z.eqb n 0); [apply fp_identity|].
  destruct (Z.eqb n 1); [apply fp_set_values|].
  destruct (Z.eqb n 2); [apply fp_append_field|].
  destruct (Z.eqb n 3); [apply fp_replace_metadata|].
  destruct (Z.eqb n 4); [apply fp_drop_strings|].
  destruct (Z.eqb n 5); [apply fp_add_comment|].
  destruct (Z.eqb n 6); [apply fp_twice|].
  destruct (Z.eqb n 7) eqn:E7; [apply Z.eqb_eq in E7; contradiction|].
  apply fp_same_key.
Qed.

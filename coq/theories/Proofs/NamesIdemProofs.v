(* C12 idempotence for ALL strings (balanced or not):  split (merge (split s)) = split s.

   Idempotence is a direct simulation argument on the six-step machine; no reference splitter, no balance hypothesis.

   For a machine state st let  nt st  (the "normalised text" of the state) be
        piece_1 " and " piece_2 " and " ... piece_k " and " ++ current ++ pending
   i.e. the text read so far with every separator already passed replaced by the canonical " and ".
   Invariant (IdemInv): running the machine from scratch on  nt st  reaches st again (up to the ghost list of separators,
   [sim]); and whenever a separator candidate is being matched (step <> START_WHITESPACE) there is an "anchor"
   state a -- the state in which the first whitespace of the candidate was read -- which itself satisfies sim, from
   which whitespace restarts a candidate (depth 0, no pending escape, step START/FIND_N/FIND_D), and whose whole text
   is the current name of st.  Every step that is not a cut appends its character to nt, so sim is kept by
   determinism.  At a cut the new normalised text is  nt a ++ " and " ++ [c]:  from the anchor the canonical separator
   walks FIND_A, FIND_N, FIND_D, END_WHITESPACE, NEXT_WORD with the same current name, and the cut on c then produces
   the same state as the original cut (after a cut the bookkeeping depends on c only: the depth was 0 since a
   candidate can only be matched at depth 0 -- in particular a stray '}' (depth clamped at 0, never cuts) is treated
   the same way after " and " as after the original separator because it is processed from an identical state). *)
From Coq Require Import List NArith ZArith Bool Lia PeanoNat.
From BP Require Import Base.Chars Model.Names Spec.C12 Proofs.NamesExactProofs.
Import ListNotations.

Lemma join_cons_ne (sep x : str) (l : list str) : l <> [] -> join sep (x :: l) = x ++ sep ++ join sep l.
Proof. destruct l; [contradiction | reflexivity]. Qed.

Definition hdc (l : str) : ch := hd 0%N l.
Definition lastc (l : str) : ch := last l 0%N.

Lemma hdc_app (a b : str) : a <> [] -> hdc (a ++ b) = hdc a.
Proof. destruct a; [contradiction | reflexivity]. Qed.
Lemma lastc_app (a b : str) : b <> [] -> lastc (a ++ b) = lastc b.
Proof.
  intros Hb. unfold lastc. induction a as [|x a IH]; [reflexivity|]. cbn [app].
  destruct (a ++ b) eqn:E; [apply app_eq_nil in E; destruct E; contradiction|]. exact IH.
Qed.

Lemma interleave_ends X : forall seps, X <> [] -> Forall (fun p : str => p <> []) X -> length seps = pred (length X) ->
  interleave X seps <> [] /\ hdc (interleave X seps) = hdc (hd [] X) /\ lastc (interleave X seps) = lastc (last X []).
Proof.
  induction X as [|p X IH]; intros seps Hne HF HL; [contradiction|].
  inversion HF as [|? ? Hp HF']; subst.
  destruct X as [|p2 X].
  - cbn. repeat split; auto.
  - destruct seps as [|s seps]; [simpl in HL; discriminate|].
    destruct (IH seps ltac:(discriminate) HF' ltac:(simpl in *; lia)) as (I1 & I2 & I3).
    change (interleave (p :: p2 :: X) (s :: seps)) with (p ++ s ++ interleave (p2 :: X) seps).
    split; [intros E; apply app_eq_nil in E; destruct E; contradiction|].
    split; [apply hdc_app; exact Hp|].
    rewrite lastc_app; [|intros E; apply app_eq_nil in E; destruct E; contradiction].
    rewrite lastc_app by exact I1. exact I3.
Qed.

(* a join is the interleaving with one and the same separator *)
Lemma join_interleave sep X : join sep X = interleave X (repeat sep (pred (length X))).
Proof.
  induction X as [|p X IH]; [reflexivity|]. destruct X as [|p2 X]; [reflexivity|].
  change (join sep (p :: p2 :: X)) with (p ++ sep ++ join sep (p2 :: X)). rewrite IH. reflexivity.
Qed.

Lemma join_ends sep X : X <> [] -> Forall (fun p : str => p <> []) X ->
  join sep X <> [] /\ hdc (join sep X) = hdc (hd [] X) /\ lastc (join sep X) = lastc (last X []).
Proof. intros Hne HF. rewrite join_interleave. apply interleave_ends; [exact Hne | exact HF | apply repeat_length]. Qed.

Lemma strip_id p (l : str) : l <> [] -> p (hdc l) = false -> p (lastc l) = false -> strip_set p l = l.
Proof.
  intros Hne Hh Hl. unfold strip_set.
  assert (E1 : lstrip_set p l = l) by (destruct l; [contradiction|]; cbn in *; rewrite Hh; reflexivity).
  rewrite E1.
  assert (E2 : lstrip_set p (rev l) = rev l).
  { destruct (exists_last Hne) as (l' & x & ->). unfold lastc in Hl. rewrite last_last in Hl.
    rewrite rev_app_distr. cbn. rewrite Hl. reflexivity. }
  rewrite E2. apply rev_involutive.
Qed.

Definition forget (st : sst) : sst :=
  mksst (s_step st) (s_depth st) (s_esc st) (s_cur st) (s_pend st) (s_pieces st) [].
Definition eqv (a b : sst) : Prop := forget a = forget b.

Lemma eqv_fields a b : eqv a b ->
  s_step a = s_step b /\ s_depth a = s_depth b /\ s_esc a = s_esc b /\ s_cur a = s_cur b /\ s_pend a = s_pend b
  /\ s_pieces a = s_pieces b.
Proof. unfold eqv, forget. intros H. injection H as H1 H2 H3 H4 H5 H6. auto 10. Qed.

Lemma step_eqv a b c : eqv a b -> eqv (split_step a c) (split_step b c).
Proof.
  destruct a as [s1 d1 e1 c1 p1 P1 S1], b as [s2 d2 e2 c2 p2 P2 S2].
  unfold eqv, forget. cbn [s_step s_depth s_esc s_cur s_pend s_pieces]. intros H.
  injection H as -> -> -> -> -> ->.
  rewrite !split_step_eq. unfold s_word. cbn [s_step s_depth s_esc].
  destruct e2; [reflexivity|].
  destruct (ceq c c_bs); [destruct (is_next s2); reflexivity|].
  destruct (ceq c c_lb); [destruct (is_next s2); reflexivity|].
  destruct (ceq c c_rb); [reflexivity|].
  destruct (negb (d2 =? 0)%N); [reflexivity|].
  destruct (next_more s2 c); [reflexivity|].
  destruct (ws_split c && can_restart s2); [reflexivity|]. destruct (is_next s2); reflexivity.
Qed.

Lemma fold_eqv l : forall a b, eqv a b -> eqv (fold_left split_step l a) (fold_left split_step l b).
Proof. induction l as [|c l IH]; intros a b H; [exact H|]. cbn [fold_left]. apply IH, step_eqv, H. Qed.

Lemma out_eqv a b : eqv a b -> fst (split_result a) = fst (split_result b).
Proof.
  intros H. destruct (eqv_fields a b H) as (_ & _ & _ & E4 & E5 & E6).
  unfold split_result. cbn [fst]. rewrite E4, E5, E6. reflexivity.
Qed.

Definition nt (st : sst) : str :=
  concat (map (fun p : str => p ++ and_sep) (rev (s_pieces st))) ++ rev (s_cur st) ++ rev (s_pend st).

Definition sim (st : sst) : Prop := eqv (fold_left split_step (nt st) sst0) st.

Lemma nt_ext st st' c : keeps st st' c -> nt st' = nt st ++ [c].
Proof. intros (HP & _ & E). unfold nt. rewrite HP, E, <- !app_assoc. reflexivity. Qed.

Lemma sim_ext st c : sim st -> keeps st (split_step st c) c -> sim (split_step st c).
Proof.
  intros Hs Hk. unfold sim. rewrite (nt_ext _ _ _ Hk), fold_left_app. cbn [fold_left]. apply step_eqv. exact Hs.
Qed.

Definition restartable (a : sst) : Prop :=
  s_esc a = false /\ s_depth a = 0%N /\ can_restart (s_step a) = true.

Definition anchored (st : sst) : Prop :=
  s_depth st = 0%N /\ s_esc st = false /\
  exists a, sim a /\ restartable a /\ s_cur st = s_pend a ++ s_cur a /\ s_pieces st = s_pieces a.

Definition anchor_inv (st : sst) : Prop :=
  match s_step st with SStart => s_pend st = [] | _ => anchored st end.

Definition IdemInv (st : sst) : Prop := sim st /\ anchor_inv st.

Lemma idem_ext st c st' : IdemInv st -> split_step st c = st' -> keeps st st' c -> anchor_inv st' -> IdemInv st'.
Proof. intros [Hs _] <- Hk Ht. split; [apply sim_ext; assumption | exact Ht]. Qed.

Lemma more_tail st c s' : next_more (s_step st) c = Some s' -> anchor_inv st -> anchor_inv (s_more st c s').
Proof.
  intros Hn Ht. destruct (next_more_steps _ _ _ Hn) as [H1 H2].
  assert (A : anchored st) by (unfold anchor_inv in Ht; destruct (s_step st); [contradiction|..]; exact Ht).
  destruct A as (Hd & He & a & Ha).
  unfold anchor_inv. change (s_step (s_more st c s')) with s'.
  destruct s'; [contradiction|..]; (split; [exact Hd|]); (split; [reflexivity|]); exists a; exact Ha.
Qed.

Lemma restart_tail st c : sim st -> s_esc st = false -> s_depth st = 0%N -> can_restart (s_step st) = true ->
  anchor_inv (s_restart st c).
Proof.
  intros Hs He Hd Hst. unfold anchor_inv, s_restart. cbn [s_step]. unfold anchored. cbn [s_depth s_esc s_cur s_pieces].
  split; [exact Hd|]. split; [reflexivity|]. exists st. split; [exact Hs|]. split; [|split; reflexivity].
  split; [exact He|]. split; [exact Hd | exact Hst].
Qed.

(* from an anchor the canonical separator is matched completely, the current name being the anchor's whole text *)
Lemma and_run a : restartable a ->
  fold_left split_step and_sep a
  = mksst SNextWord 0 false (s_pend a ++ s_cur a) (rev and_sep) (s_pieces a) (s_seps a).
Proof.
  destruct a as [s d e cu pe P S]. unfold restartable. cbn [s_step s_depth s_esc s_cur s_pend s_pieces s_seps].
  intros (-> & -> & Hs). destruct s; try discriminate; vm_compute; reflexivity.
Qed.

Lemma nt_cut st a c d e : s_cur st = s_pend a ++ s_cur a -> s_pieces st = s_pieces a ->
  nt (s_cut st c d e) = nt a ++ and_sep ++ [c].
Proof.
  intros Hc Hp. unfold nt, s_cut. cbn [s_pieces s_cur s_pend]. rewrite Hc, Hp.
  cbn [rev]. rewrite map_app, concat_app. cbn [map concat app]. rewrite rev_app_distr, !app_nil_r, <- !app_assoc.
  reflexivity.
Qed.

Lemma idem_cut st c d e : IdemInv st -> s_step st = SNextWord ->
  (forall b, s_esc b = false -> s_step b = SNextWord -> s_depth b = s_depth st -> split_step b c = s_cut b c d e) ->
  IdemInv (s_cut st c d e).
Proof.
  intros [Hs Ht] Est Hcut. unfold anchor_inv in Ht. rewrite Est in Ht.
  destruct Ht as (Hd & He & a & Hsa & Hra & Hcur & Hpieces).
  split; [|reflexivity].
  unfold sim. rewrite (nt_cut st a c d e Hcur Hpieces), !fold_left_app. cbn [fold_left].
  set (b := fold_left split_step and_sep (fold_left split_step (nt a) sst0)).
  set (b' := fold_left split_step and_sep a).
  assert (Hbb : eqv b b') by (apply fold_eqv; exact Hsa).
  assert (Eb' : b' = mksst SNextWord 0 false (s_pend a ++ s_cur a) (rev and_sep) (s_pieces a) (s_seps a))
    by (apply and_run; exact Hra).
  unfold eqv. rewrite (step_eqv b b' c Hbb).
  rewrite (Hcut b') by (rewrite Eb', ?Hd; reflexivity).
  rewrite Eb'. unfold forget, s_cut. cbn [s_step s_depth s_esc s_cur s_pend s_pieces].
  rewrite Hcur, Hpieces. reflexivity.
Qed.

Lemma idem_step st c : IdemInv st -> IdemInv (split_step st c).
Proof.
  intros HK. pose proof HK as [Hsim Hm].
  (* the cases are taken on a step that is remembered to be the step of st on c: sim is kept by determinism *)
  cut (split_step st c = split_step st c -> IdemInv (split_step st c)); [intros H; exact (H eq_refl)|].
  apply (split_step_cases (fun st' => split_step st c = st' -> IdemInv st')).
  - (* the partner of a backslash: only in START_WHITESPACE, where nothing is pending *)
    intros Eesc E.
    assert (s_step st = SStart /\ s_pend st = []) as [Est Hp].
    { unfold anchor_inv in Hm. destruct (s_step st); [split; [reflexivity | exact Hm]|..];
        destruct Hm as (_ & He & _); congruence. }
    apply (idem_ext st c _ HK E); [exact (esc_keeps st c Hp)|].
    unfold anchor_inv. cbn [esc_step s_step s_pend]. rewrite Est. exact Hp.
  - intros d e E. apply (idem_ext st c _ HK E); [apply flush_keeps | reflexivity].
  - intros d e Est Hcut _. apply idem_cut; assumption.
  - intros s' _ _ Hn E. apply (idem_ext st c _ HK E); [apply more_keeps | exact (more_tail st c s' Hn Hm)].
  - intros He Hd _ Hr E. apply (idem_ext st c _ HK E); [apply restart_keeps | apply restart_tail; assumption].
Qed.

Lemma idem_fold l : forall st, IdemInv st -> IdemInv (fold_left split_step l st).
Proof. induction l as [|c l IH]; intros st H; [exact H|]. cbn [fold_left]. apply IH, idem_step, H. Qed.

Lemma idem_sst0 : IdemInv sst0.
Proof. split; reflexivity. Qed.

Lemma run_sim t : sim (split_run t).
Proof. exact (proj1 (idem_fold t sst0 idem_sst0)). Qed.

Lemma join_snoc (sep : str) (l : list str) (x : str) :
  join sep (l ++ [x]) = concat (map (fun p : str => p ++ sep) l) ++ x.
Proof.
  induction l as [|y l IH]; [reflexivity|].
  cbn [app map concat]. rewrite join_cons_ne by (destruct l; discriminate). rewrite IH, <- !app_assoc. reflexivity.
Qed.

Lemma merge_out st : merge_names (fst (split_result st)) = nt st.
Proof.
  unfold merge_names, split_result, nt. cbn [fst rev]. rewrite join_snoc, rev_app_distr. reflexivity.
Qed.

Theorem split_idempotent_all s : idempotent_on s.
Proof.
  unfold idempotent_on.
  pose proof (split_conserved s) as (seps & HL & Ht & Hseps & Hpne).
  pose proof (strip_set_head ws_split s) as Hhead. pose proof (strip_set_last ws_split s) as Hlast.
  fold (strip4 s) in Hhead, Hlast.
  assert (EX0 : split_names s = match strip4 s with [] => [] | t => fst (split_result (split_run t)) end).
  { unfold split_names, split_names_seps. destruct (strip4 s); reflexivity. }
  set (X := split_names s) in *.
  destruct (strip4 s) as [|c0 t0] eqn:Et.
  { rewrite EX0. reflexivity. }
  assert (HXne : X <> []) by (intros E; rewrite E in Ht; discriminate).
  set (st := split_run (c0 :: t0)) in *.
  assert (Em : merge_names X = nt st) by (rewrite EX0; apply merge_out).
  (* the merged text is already stripped *)
  destruct (interleave_ends X seps HXne Hpne HL) as (_ & Hh1 & Hl1).
  destruct (join_ends and_sep X HXne Hpne) as (Hjne & Hh2 & Hl2). fold (merge_names X) in Hjne, Hh2, Hl2.
  assert (Estrip : strip4 (merge_names X) = merge_names X).
  { apply strip_id; [exact Hjne | |].
    - rewrite Hh2, <- Hh1, <- Ht. exact Hhead.
    - rewrite Hl2, <- Hl1, <- Ht. exact Hlast. }
  assert (E1 : split_names (merge_names X) = fst (split_result (split_run (merge_names X)))).
  { unfold split_names, split_names_seps. rewrite Estrip. destruct (merge_names X); [contradiction | reflexivity]. }
  rewrite E1, Em, EX0. apply out_eqv. exact (run_sim (c0 :: t0)).
Qed.

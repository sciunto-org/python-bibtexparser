(* C17 over an ARBITRARY str.lower (Model/SortFieldsGen.v, Model/FieldKeysGen.v, Spec/C17Gen.v): the library-level
   middlewares and the assembled statements; the field-level proofs are in Proofs/SortFieldsProofs.v, where the header
   says what is assumed about [lowerU] for what.  [gen_instance]: with lowerU := Base.Chars.lower the generalised
   definitions are the existing ones, by reflexivity. *)
From Coq Require Import List ZArith.
From BP Require Import Base.Chars Model.Blocks Model.LibRebuild Model.SortFields Model.FieldKeys
  Model.SortFieldsGen Model.FieldKeysGen Spec.C17 Spec.C17Gen Proofs.SortFieldsProofs Proofs.Common.
Import ListNotations.

Section AnyLowerLibrary.
  Variable lowerU : str -> str.

  Notation sort_custom_g := (sort_custom_gen lowerU).
  Notation custom_block_g := (custom_block_gen lowerU).
  Notation normalize_fields_g := (normalize_fields_gen lowerU).
  Notation normalize_block_g := (normalize_block_gen lowerU).
  Notation keys_lower_g := (keys_lower_gen lowerU).

  Definition mw_custom_gen (cs tup : bool) (ord : list str) : list block -> list block :=
    block_mw (custom_block_g cs tup ord).
  Definition mw_normalize_gen : list block -> list block := block_mw normalize_block_g.

  (* frame (no hypothesis on lowerU): on a library satisfying Library's key invariant the result corresponds
     block for block, it IS the block-wise image, and an entry keeps type and key and gets the sorted /
     normalised fields *)
  Theorem frame_all_g bs : lib_ok bs ->
    (forall cs tup ord, lib_frame (Some custom_meta_key) bs (mw_custom_gen cs tup ord bs))
    /\ lib_frame None bs (mw_normalize_gen bs)
    /\ (forall cs tup ord, mw_custom_gen cs tup ord bs = map (custom_block_g cs tup ord) bs)
    /\ mw_normalize_gen bs = map normalize_block_g bs
    /\ (forall h t k fs,
          (forall cs tup ord, exists h',
              custom_block_g cs tup ord (BEntry h t k fs) = BEntry h' t k (sort_custom_g cs ord fs))
          /\ normalize_block_g (BEntry h t k fs) = BEntry h t k (normalize_fields_g fs)).
  Proof.
    intros H. split; [|split; [|split; [|split]]].
    - intros cs tup ord. apply block_mw_frame; [exact H | apply custom_block_frame_g].
    - apply block_mw_frame; [exact H | apply normalize_block_frame_g].
    - intros cs tup ord. apply block_mw_ok; exact H.
    - apply block_mw_ok; exact H.
    - intros h t k fs. split; [intros; eexists; reflexivity | reflexivity].
  Qed.

  (* idempotence: custom sort for every lowerU; normalisation exactly when lowerU is idempotent
     (library level, ANY list of blocks; and field level) *)
  Lemma mw_normalize_single_g k v ln :
    mw_normalize_gen [BEntry hdr0 [] [] [mkfield k v ln]] = [BEntry hdr0 [] [] [mkfield (lowerU k) v ln]].
  Proof. reflexivity. Qed.

  Theorem idem_all_g :
    (forall cs tup ord bs, mw_custom_gen cs tup ord (mw_custom_gen cs tup ord bs) = mw_custom_gen cs tup ord bs)
    /\ (forall cs ord fs, sort_custom_g cs ord (sort_custom_g cs ord fs) = sort_custom_g cs ord fs)
    /\ (lower_idempotent lowerU ->
          (forall bs, mw_normalize_gen (mw_normalize_gen bs) = mw_normalize_gen bs)
          /\ (forall fs, normalize_fields_g (normalize_fields_g fs) = normalize_fields_g fs)
          /\ (forall fs, keys_lower_g (normalize_fields_g fs)))
    /\ ((forall bs, mw_normalize_gen (mw_normalize_gen bs) = mw_normalize_gen bs) -> lower_idempotent lowerU)
    /\ ((forall fs, normalize_fields_g (normalize_fields_g fs) = normalize_fields_g fs) -> lower_idempotent lowerU)
    /\ ((forall fs, keys_lower_g (normalize_fields_g fs)) -> lower_idempotent lowerU).
  Proof.
    split; [|split; [|split; [|split; [|split]]]].
    - intros cs tup ord bs. apply block_mw_idem. apply custom_block_idem_g.
    - intros cs ord fs. apply sort_custom_idem_g.
    - intros Hid. split; [|split].
      + intros bs. apply block_mw_idem. apply normalize_block_idem_g. exact Hid.
      + apply normalize_fields_idem_g. exact Hid.
      + apply normalize_keys_lower_g. exact Hid.
    - intros H s. specialize (H [BEntry hdr0 [] [] [mkfield s (VInt 0) None]]).
      rewrite !mw_normalize_single_g in H. injection H as H. exact H.
    - apply normalize_idem_iff_g.
    - apply keys_lower_iff_g.
  Qed.
End AnyLowerLibrary.

Theorem gen_custom (lowerU : str -> str) cs ord fs :
  custom_spec_gen lowerU cs ord fs (sort_custom_gen lowerU cs ord fs)
  /\ (forall out, custom_spec_gen lowerU cs ord fs out -> out = sort_custom_gen lowerU cs ord fs)
  /\ (forall order, custom_ctor_gen lowerU cs order = Some ord ->
        sort_custom_gen lowerU cs ord fs = custom_explicit_gen lowerU cs ord fs).
Proof.
  split; [apply sort_custom_spec_g | split].
  - intros out. apply custom_spec_unique_g.
  - intros order. apply custom_explicit_after_ctor_g.
Qed.

Theorem gen_ctor (lowerU : str -> str) cs order :
  (custom_ctor_gen lowerU cs order = None <-> ~ NoDup (map (folded_gen lowerU cs) order))
  /\ (forall ord, custom_ctor_gen lowerU cs order = Some ord -> ord = map (folded_gen lowerU cs) order /\ NoDup ord).
Proof. split; [apply custom_ctor_error_g | intros ord; apply custom_ctor_ok_g]. Qed.

(* keys = first occurrences of the lowerU names, in order; value and line of the last occurrence; no value changed:
   for every lowerU.  The keys are fixed points of lowerU ("lower-case") as soon as lowerU is idempotent. *)
Theorem gen_normalize (lowerU : str -> str) fs :
  normalize_spec_gen lowerU fs (normalize_fields_gen lowerU fs)
  /\ (lower_idempotent lowerU -> keys_lower_gen lowerU (normalize_fields_gen lowerU fs)).
Proof. split; [apply normalize_fields_spec_g | intros H; apply normalize_keys_lower_g; exact H]. Qed.

(* with lowerU := Base.Chars.lower the generalised model and specification are the existing ones (conversion) *)
Theorem gen_instance :
  (* model *)
  (forall cs k, fold_key_gen lower cs k = fold_key cs k)
  /\ (forall cs order, custom_ctor_gen lower cs order = custom_ctor cs order)
  /\ (forall cs ord f, custom_rank_gen lower cs ord f = custom_rank cs ord f)
  /\ (forall cs ord fs, sort_custom_gen lower cs ord fs = sort_custom cs ord fs)
  /\ (forall cs tup ord b, custom_block_gen lower cs tup ord b = custom_block cs tup ord b)
  /\ (forall f, lowered_gen lower f = lowered f)
  /\ (forall d fs, norm_loop_gen lower d fs = norm_loop d fs)
  /\ (forall fs, normalize_fields_gen lower fs = normalize_fields fs)
  /\ (forall b, normalize_block_gen lower b = normalize_block b)
  /\ (forall cs tup ord bs, mw_custom_gen lower cs tup ord bs = mw_custom cs tup ord bs)
  /\ (forall bs, mw_normalize_gen lower bs = mw_normalize bs)
  (* specification *)
  /\ (forall cs k, folded_gen lower cs k = folded cs k)
  /\ (forall cs ord f, field_pos_gen lower cs ord f = field_pos cs ord f)
  /\ (forall cs ord fs out, custom_spec_gen lower cs ord fs out = custom_spec cs ord fs out)
  /\ (forall cs ord fs, custom_explicit_gen lower cs ord fs = custom_explicit cs ord fs)
  /\ (forall k fs, last_with_gen lower k fs = last_with k fs)
  /\ (forall fs out, (normalize_spec_gen lower fs out /\ keys_lower_gen lower out) <-> normalize_spec fs out)
  (* and the hypothesis of the idempotence theorem holds of it *)
  /\ lower_idempotent lower.
Proof.
  repeat match goal with |- _ /\ _ => split end; try (intros; reflexivity).
  - exact normalize_spec_ascii.
  - exact lower_idem.
Qed.

(* ---- the ASCII model: the alphabetical middleware, which calls no lower(), beside the statements above at
   lowerU := lower, whose idempotence premise holds *)
Theorem frame_all bs : lib_ok bs ->
  lib_frame (Some alpha_meta_key) bs (mw_alpha bs)
  /\ (forall cs tup ord, lib_frame (Some custom_meta_key) bs (mw_custom cs tup ord bs))
  /\ lib_frame None bs (mw_normalize bs).
Proof.
  intros H. destruct (frame_all_g lower bs H) as (F1 & F2 & _).
  exact (conj (block_mw_frame _ _ _ bs H alpha_block_frame) (conj F1 F2)).
Qed.

Theorem blockwise_all bs : lib_ok bs ->
  mw_alpha bs = map alpha_block bs
  /\ (forall cs tup ord, mw_custom cs tup ord bs = map (custom_block cs tup ord) bs)
  /\ mw_normalize bs = map normalize_block bs.
Proof.
  intros H. destruct (frame_all_g lower bs H) as (_ & _ & B1 & B2 & _).
  exact (conj (block_mw_ok _ _ bs H) (conj B1 B2)).
Qed.

Theorem idem_all bs :
  mw_alpha (mw_alpha bs) = mw_alpha bs
  /\ (forall cs tup ord, mw_custom cs tup ord (mw_custom cs tup ord bs) = mw_custom cs tup ord bs)
  /\ mw_normalize (mw_normalize bs) = mw_normalize bs.
Proof.
  destruct (idem_all_g lower) as (I & _ & N & _). destruct (N lower_idem) as (N1 & _).
  exact (conj (block_mw_idem _ _ bs alpha_block_idem) (conj (fun cs tup ord => I cs tup ord bs) (N1 bs))).
Qed.

Theorem idem_fields fs :
  sort_alpha (sort_alpha fs) = sort_alpha fs
  /\ (forall cs ord, sort_custom cs ord (sort_custom cs ord fs) = sort_custom cs ord fs)
  /\ normalize_fields (normalize_fields fs) = normalize_fields fs.
Proof.
  destruct (idem_all_g lower) as (_ & I & N & _). destruct (N lower_idem) as (_ & N2 & _).
  exact (conj (sort_alpha_idem fs) (conj (fun cs ord => I cs ord fs) (N2 fs))).
Qed.

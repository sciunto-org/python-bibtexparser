(* C12, the six-step machine of split_multiple_persons_names.  Conservation for ALL strings: the machine by kind of
   transition, the shape of its separator candidate, a segment invariant over the fold.  Exactness on brace-balanced text:
   going backwards over the remaining text, from any machine state "what the machine will still return" equals "what the
   reference walk of Spec.C12 returns on the runs of (pending separator candidate ++ remaining marked text)". *)
From Coq Require Import List NArith ZArith Bool Lia PeanoNat.
From BP Require Import Base.Chars Model.Names Spec.C12 Proofs.Common.
Import ListNotations.

(* piece_1 sep_1 piece_2 sep_2 ... piece_n sep_n: interleave with a separator after the last piece as well, the
   form that grows at its right end as the machine reads on *)
Fixpoint zipcat (P S : list str) : str :=
  match P, S with
  | p :: P', s :: S' => p ++ s ++ zipcat P' S'
  | _, _ => []
  end.

Lemma zipcat_snoc P : forall S p s, length P = length S -> zipcat (P ++ [p]) (S ++ [s]) = zipcat P S ++ p ++ s.
Proof.
  induction P as [|x P IH]; intros [|y S] p s HL; simpl in *; try discriminate.
  - rewrite app_nil_r. reflexivity.
  - rewrite IH by lia. rewrite <- !app_assoc. reflexivity.
Qed.

Lemma interleave_snoc P : forall S x, length P = length S -> interleave (P ++ [x]) S = zipcat P S ++ x.
Proof.
  induction P as [|p P IH]; intros [|s S] x HL; simpl in *; try discriminate.
  - reflexivity.
  - specialize (IH S x ltac:(lia)).
    destruct (P ++ [x]) eqn:E.
    + destruct P; discriminate.
    + rewrite IH. rewrite <- !app_assoc. reflexivity.
Qed.

Definition allws (q : str) : Prop := forallb ws_split q = true.

Lemma allws_app q c : allws q -> ws_split c = true -> allws (q ++ [c]).
Proof. unfold allws. intros H1 H2. rewrite forallb_app, H1. simpl. rewrite H2. reflexivity. Qed.

(* the letters of a separator: position n of  a|A n|N d|D *)
Definition letter_at (n : nat) (c : ch) : bool :=
  match n with 0 => is_aA c | 1 => is_nN c | 2 => is_dD c | _ => false end.
Fixpoint and_pre_from (n : nat) (l : str) : bool :=
  match l with [] => true | c :: r => letter_at n c && and_pre_from (S n) r end.
Definition and_pre (l : str) : bool := and_pre_from 0 l.

Lemma and_pre_app l t : forall n, and_pre_from n (l ++ t) = and_pre_from n l && and_pre_from (n + length l) t.
Proof.
  induction l as [|c l IH]; intros n; cbn [app and_pre_from length]; [rewrite Nat.add_0_r; reflexivity|].
  rewrite IH, andb_assoc, Nat.add_succ_r. reflexivity.
Qed.

Lemma and_word_pre w : is_and_word w = and_pre w && (length w =? 3)%nat.
Proof.
  destruct w as [|a [|n [|d [|x r]]]]; cbn; rewrite ?andb_false_r, ?andb_true_r, ?andb_assoc; reflexivity.
Qed.

Lemma not_and_ext l c t : letter_at (length l) c = false -> is_and_word (l ++ c :: t) = false.
Proof.
  intros H. rewrite and_word_pre. unfold and_pre. rewrite and_pre_app. cbn [and_pre_from Nat.add]. rewrite H, andb_false_r.
  reflexivity.
Qed.

Lemma and_pre_snoc l c : and_pre l = true -> letter_at (length l) c = true -> and_pre (l ++ [c]) = true.
Proof. unfold and_pre. intros H1 H2. rewrite and_pre_app, H1. cbn [and_pre_from Nat.add]. rewrite H2. reflexivity. Qed.

Definition letters (s : sstep) : nat :=
  match s with SStart | SFindA => 0 | SFindN => 1 | SFindD => 2 | SEndWs | SNextWord => 3 end.
Definition tailws (s : sstep) (w2 : str) : Prop := match s with SNextWord => w2 <> [] | _ => w2 = [] end.

(* the text of the separator candidate is  ws+ letters ws*  with as many letters as the step says, and whitespace
   after them exactly at NEXT_WORD *)
Definition shape (s : sstep) (q : str) : Prop :=
  match s with
  | SStart => q = []
  | _ => exists w l w2, q = w ++ l ++ w2 /\ w <> [] /\ allws w /\ length l = letters s /\ and_pre l = true
                        /\ allws w2 /\ tailws s w2
  end.

Lemma shape_next_sep q : shape SNextWord q -> is_and_sep q.
Proof.
  intros (w & l & w2 & E & Hw & Aw & Hl & Hp & A2 & Ht).
  exists w, l, w2. repeat split; auto. rewrite and_word_pre, Hp, Hl. reflexivity.
Qed.

(* The state after reading pre.  iP and iS are the finished names and separators in reading order; with the
   unfinished name and the separator candidate they make up pre.  Every finished separator is  ws+ and ws+, no name
   is empty, the candidate has the shape its step says, and an escape is pending or braces are open only in
   START_WHITESPACE. *)
Record SplitInv (pre : str) (st : sst) : Prop := mkSplitInv { iP : list str; iS : list str;
  i_pieces : s_pieces st = rev iP;
  i_seps : s_seps st = rev iS;
  i_len : length iP = length iS;
  i_text : pre = zipcat iP iS ++ rev (s_cur st) ++ rev (s_pend st);
  i_seps_ok : Forall is_and_sep iS;
  i_pieces_ne : Forall (fun p => p <> []) iP;
  i_cur_ne : s_cur st <> [];
  i_shape : shape (s_step st) (rev (s_pend st));
  i_esc : s_esc st = true -> s_step st = SStart;
  i_deep : s_depth st <> 0%N -> s_step st = SStart
}.

Lemma rev_nil {A} (l : list A) : rev l = [] -> l = [].
Proof. destruct l as [|x l]; [reflexivity|]. simpl. destruct (rev l); discriminate. Qed.

Lemma cut_inv pre st c d e : SplitInv pre st -> s_step st = SNextWord -> SplitInv (pre ++ [c]) (s_cut st c d e).
Proof.
  intros [P S HP HS HL HT HSo HPn Hc Hsh He _] Hst.
  rewrite Hst in Hsh.
  refine (mkSplitInv _ _ (P ++ [rev (s_cur st)]) (S ++ [rev (s_pend st)]) _ _ _ _ _ _ _ _ _ _); unfold s_cut; simpl.
  - rewrite rev_app_distr, HP. reflexivity.
  - rewrite rev_app_distr, HS. reflexivity.
  - rewrite !app_length. simpl. lia.
  - rewrite zipcat_snoc by exact HL. rewrite HT. rewrite <- !app_assoc. reflexivity.
  - apply Forall_app. split; [exact HSo|]. constructor; [|constructor]. apply shape_next_sep. exact Hsh.
  - apply Forall_app. split; [exact HPn|]. constructor; [|constructor].
    intros E. exact (Hc (rev_nil _ E)).
  - discriminate.
  - reflexivity.
  - reflexivity.
  - reflexivity.
Qed.

Definition esc_step (st : sst) (c : ch) : sst :=
  mksst (s_step st) (s_depth st) false (c :: s_cur st) (s_pend st) (s_pieces st) (s_seps st).
(* a character that belongs to a name: it starts the next name after a complete separator, else joins the current one *)
Definition s_word (st : sst) (c : ch) (d : N) (e : bool) : sst :=
  if is_next (s_step st) then s_cut st c d e else s_flush st c d e.
(* the step after c if c extends the separator candidate *)
Definition next_more (s : sstep) (c : ch) : option sstep :=
  match s with
  | SStart => None
  | SFindA => if is_aA c then Some SFindN else if ws_split c then Some SFindA else None
  | SFindN => if is_nN c then Some SFindD else None
  | SFindD => if is_dD c then Some SEndWs else None
  | SEndWs | SNextWord => if ws_split c then Some SNextWord else None
  end.
Definition can_restart (s : sstep) : bool := match s with SStart | SFindN | SFindD => true | _ => false end.

(* st' has the finished names and separators of st and its unfinished text extended by c: every step but a cut *)
Definition keeps (st st' : sst) (c : ch) : Prop :=
  s_pieces st' = s_pieces st /\ s_seps st' = s_seps st
  /\ rev (s_cur st') ++ rev (s_pend st') = rev (s_cur st) ++ rev (s_pend st) ++ [c].

Lemma flush_keeps st c d e : keeps st (s_flush st c d e) c.
Proof.
  unfold keeps, s_flush. cbn [s_pieces s_seps s_cur s_pend]. split; [reflexivity|]. split; [reflexivity|].
  cbn [rev]. rewrite rev_app_distr, app_nil_r, <- app_assoc. reflexivity.
Qed.
Lemma more_keeps st c step' : keeps st (s_more st c step') c.
Proof. unfold keeps, s_more. cbn [s_pieces s_seps s_cur s_pend]. repeat split. Qed.
Lemma restart_keeps st c : keeps st (s_restart st c) c.
Proof.
  unfold keeps, s_restart. cbn [s_pieces s_seps s_cur s_pend]. split; [reflexivity|]. split; [reflexivity|].
  cbn [rev app]. rewrite rev_app_distr, <- app_assoc. reflexivity.
Qed.
Lemma esc_keeps st c : s_pend st = [] -> keeps st (esc_step st c) c.
Proof.
  intros Hp. unfold keeps, esc_step. cbn [s_pieces s_seps s_cur s_pend]. split; [reflexivity|]. split; [reflexivity|].
  rewrite Hp. cbn [rev app]. rewrite app_nil_r. reflexivity.
Qed.

Lemma keeps_inv pre st st' c : SplitInv pre st -> keeps st st' c -> s_cur st' <> [] ->
  shape (s_step st') (rev (s_pend st')) -> (s_esc st' = true -> s_step st' = SStart) ->
  (s_depth st' <> 0%N -> s_step st' = SStart) -> SplitInv (pre ++ [c]) st'.
Proof.
  intros [P S HP HS HL HT HSo HPn Hc Hsh He _] (K1 & K2 & K3) Hc' Hsh' He' Hd'.
  refine (mkSplitInv _ _ P S _ _ HL _ HSo HPn Hc' Hsh' He' Hd').
  - rewrite K1. exact HP.
  - rewrite K2. exact HS.
  - rewrite K3, HT, <- !app_assoc. reflexivity.
Qed.

Lemma split_step_eq st c : split_step st c =
  if s_esc st then esc_step st c
  else if ceq c c_bs then s_word st c (s_depth st) true
  else if ceq c c_lb then s_word st c (s_depth st + 1) false
  else if ceq c c_rb then s_flush st c (N.pred (s_depth st)) false
  else if negb (s_depth st =? 0)%N then s_flush st c (s_depth st) false
  else match next_more (s_step st) c with
       | Some s' => s_more st c s'
       | None => if ws_split c && can_restart (s_step st) then s_restart st c else s_word st c 0 false
       end.
Proof.
  unfold split_step, s_word. destruct (s_esc st); [reflexivity|].
  destruct (ceq c c_bs); [reflexivity|]. destruct (ceq c c_lb); [reflexivity|]. destruct (ceq c c_rb); [reflexivity|].
  destruct (negb (s_depth st =? 0)%N); [reflexivity|].
  destruct (s_step st); cbn [next_more can_restart is_next].
  - destruct (ws_split c); reflexivity.
  - destruct (is_aA c), (ws_split c); reflexivity.
  - destruct (is_nN c), (ws_split c); reflexivity.
  - destruct (is_dD c), (ws_split c); reflexivity.
  - destruct (ws_split c); reflexivity.
  - destruct (ws_split c); reflexivity.
Qed.

Lemma is_next_eq s : is_next s = true -> s = SNextWord.
Proof. destruct s; try discriminate; reflexivity. Qed.

(* Every step is an escaped character, a flush, a cut (only from NEXT_WORD, and then every state in NEXT_WORD at the
   same depth cuts in the same way: that clause is for NamesIdemProofs.idem_cut, which replays the cut from another
   state), an extension of the candidate or a restart of it (both only at depth 0, outside an escape). *)
Lemma split_step_cases (P : sst -> Prop) st c :
  (s_esc st = true -> P (esc_step st c)) ->
  (forall d e, P (s_flush st c d e)) ->
  (forall d e, s_step st = SNextWord ->
     (forall b, s_esc b = false -> s_step b = SNextWord -> s_depth b = s_depth st -> split_step b c = s_cut b c d e) ->
     P (s_cut st c d e)) ->
  (forall s', s_esc st = false -> s_depth st = 0%N -> next_more (s_step st) c = Some s' -> P (s_more st c s')) ->
  (s_esc st = false -> s_depth st = 0%N -> ws_split c = true -> can_restart (s_step st) = true -> P (s_restart st c)) ->
  P (split_step st c).
Proof.
  intros Hesc Hflush Hcut Hmore Hrestart. rewrite split_step_eq.
  assert (Hword : forall d e,
            (s_step st = SNextWord -> forall b, s_esc b = false -> s_step b = SNextWord -> s_depth b = s_depth st ->
                                                split_step b c = s_cut b c d e) ->
            P (s_word st c d e)).
  { intros d e Hb. unfold s_word. destruct (is_next (s_step st)) eqn:En; [|apply Hflush].
    apply is_next_eq in En. apply Hcut; [exact En | exact (Hb En)]. }
  destruct (s_esc st) eqn:Ee; [apply Hesc; reflexivity|].
  destruct (ceq c c_bs) eqn:Ebs.
  { apply Hword. intros _ b Eb Sb Db. rewrite split_step_eq, Eb, Ebs. unfold s_word. rewrite Sb, Db. reflexivity. }
  destruct (ceq c c_lb) eqn:Elb.
  { apply Hword. intros _ b Eb Sb Db. rewrite split_step_eq, Eb, Ebs, Elb. unfold s_word. rewrite Sb, Db. reflexivity. }
  destruct (ceq c c_rb) eqn:Erb; [apply Hflush|].
  destruct (negb (s_depth st =? 0)%N) eqn:Ed; [apply Hflush|].
  assert (Hd : s_depth st = 0%N) by (apply N.eqb_eq, negb_false_iff; exact Ed).
  destruct (next_more (s_step st) c) as [s'|] eqn:En; [apply Hmore; [reflexivity | exact Hd | reflexivity]|].
  destruct (ws_split c && can_restart (s_step st)) eqn:Er.
  { apply andb_true_iff in Er. apply Hrestart; [reflexivity | exact Hd | apply Er | apply Er]. }
  apply Hword. intros Est b Eb Sb Db.
  rewrite split_step_eq, Eb, Ebs, Elb, Erb, Db, Ed, Sb. rewrite Est in En, Er. rewrite En, Er.
  unfold s_word. rewrite Sb. reflexivity.
Qed.

Lemma shape_more s c s' q : shape s q -> next_more s c = Some s' -> shape s' (q ++ [c]).
Proof.
  assert (Hsn : forall w l, (w ++ l ++ []) ++ [c] = w ++ (l ++ [c]) ++ []) by (intros; rewrite !app_nil_r, app_assoc; reflexivity).
  destruct s; cbn [shape next_more]; [discriminate|..];
    intros (w & l & w2 & -> & Hw & Aw & Hl & Hp & A2 & Ht) Hn; cbn [letters tailws] in *.
  - subst w2. destruct (is_aA c) eqn:Ea.
    + inversion Hn; subst s'. exists w, (l ++ [c]), []. rewrite app_length, Hl. repeat split; auto.
      apply and_pre_snoc; [exact Hp | rewrite Hl; exact Ea].
    + destruct (ws_split c) eqn:Ews; inversion Hn; subst s'. destruct l; [|discriminate].
      exists (w ++ [c]), [], []. rewrite !app_nil_r. repeat split; auto.
      * intros E. apply app_eq_nil in E. tauto.
      * apply allws_app; assumption.
  - subst w2. destruct (is_nN c) eqn:En; inversion Hn; subst s'.
    exists w, (l ++ [c]), []. rewrite app_length, Hl. repeat split; auto.
    apply and_pre_snoc; [exact Hp | rewrite Hl; exact En].
  - subst w2. destruct (is_dD c) eqn:Ed; inversion Hn; subst s'.
    exists w, (l ++ [c]), []. rewrite app_length, Hl. repeat split; auto.
    apply and_pre_snoc; [exact Hp | rewrite Hl; exact Ed].
  - subst w2. destruct (ws_split c) eqn:Ews; inversion Hn; subst s'.
    assert (A1 : allws [c]) by (unfold allws; cbn [forallb]; rewrite Ews; reflexivity).
    exists w, l, [c]. rewrite !app_nil_r, <- app_assoc. repeat split; auto. discriminate.
  - destruct (ws_split c) eqn:Ews; inversion Hn; subst s'.
    exists w, l, (w2 ++ [c]). rewrite <- !app_assoc. repeat split; auto.
    + apply allws_app; assumption.
    + intros E. apply app_eq_nil in E. tauto.
Qed.

Lemma next_more_steps s c s' : next_more s c = Some s' -> s <> SStart /\ s' <> SStart.
Proof.
  destruct s; cbn [next_more];
    [discriminate | destruct (is_aA c), (ws_split c) | destruct (is_nN c) | destruct (is_dD c) | destruct (ws_split c) ..];
    intros H; inversion H; split; discriminate.
Qed.

Lemma s_word_fields st c d e :
  s_step (s_word st c d e) = SStart /\ s_pend (s_word st c d e) = [] /\ s_esc (s_word st c d e) = e
  /\ s_depth (s_word st c d e) = d.
Proof. unfold s_word. destruct (is_next (s_step st)); cbn; auto. Qed.

Lemma next_more_none s c : next_more s c = None -> s <> SStart -> s <> SNextWord -> letter_at (letters s) c = false.
Proof.
  destruct s; cbn [next_more letters letter_at]; intros H H1 H2; try reflexivity; try contradiction.
  - destruct (is_aA c); [discriminate | reflexivity].
  - destruct (is_nN c); [discriminate | reflexivity].
  - destruct (is_dD c); [discriminate | reflexivity].
Qed.

(* only whitespace leads to the steps in which the text must not end *)
Lemma next_more_ws s c s' : next_more s c = Some s' -> ws_split c = false -> s' <> SFindA /\ s' <> SNextWord.
Proof.
  intros H Hws. destruct s; cbn [next_more] in H; rewrite ?Hws in H;
    [discriminate | destruct (is_aA c) | destruct (is_nN c) | destruct (is_dD c) | ..]; inversion H; split; discriminate.
Qed.
Lemma word_not_ws s c : next_more s c = None -> ws_split c && can_restart s = false -> ws_split c = false.
Proof.
  destruct (ws_split c) eqn:Ews; [|reflexivity]. intros Hn Hr. exfalso.
  destruct s; cbn [next_more can_restart andb] in *; rewrite ?Ews in Hn; try discriminate. destruct (is_aA c); discriminate.
Qed.

Lemma step_inv pre st c : SplitInv pre st -> SplitInv (pre ++ [c]) (split_step st c).
Proof.
  intros HI. pose proof (i_cur_ne _ _ HI) as Hc. pose proof (i_shape _ _ HI) as Hsh. apply split_step_cases.
  - (* the partner of a backslash: only in START_WHITESPACE, where nothing is pending *)
    intros Eesc. pose proof (i_esc _ _ HI Eesc) as Est.
    assert (Hpend : s_pend st = []) by (apply rev_nil; rewrite Est in Hsh; exact Hsh).
    apply (keeps_inv _ _ _ _ HI (esc_keeps st c Hpend)); cbn [esc_step s_cur s_step s_pend s_esc];
      [discriminate | exact Hsh | discriminate | exact (i_deep _ _ HI)].
  - intros d e. apply (keeps_inv _ _ _ _ HI (flush_keeps st c d e)); cbn [s_flush s_cur s_step s_pend s_esc];
      [discriminate | reflexivity | reflexivity | reflexivity].
  - intros d e Est _. apply cut_inv; assumption.
  - intros s' _ Hd Hn. apply (keeps_inv _ _ _ _ HI (more_keeps st c s')); cbn [s_more s_cur s_step s_pend s_esc];
      [exact Hc | exact (shape_more _ _ _ _ Hsh Hn) | discriminate | intros H; elim (H Hd)].
  - intros _ Hd Hws _. apply (keeps_inv _ _ _ _ HI (restart_keeps st c)); cbn [s_restart s_cur s_step s_pend s_esc rev app].
    + intros E. apply app_eq_nil in E. apply Hc. tauto.
    + exists [c], [], []. repeat split; try discriminate. unfold allws. cbn [forallb]. rewrite Hws. reflexivity.
    + discriminate.
    + intros H. elim (H Hd).
Qed.

Lemma fold_inv l : forall pre st, SplitInv pre st -> SplitInv (pre ++ l) (fold_left split_step l st).
Proof.
  induction l as [|c l IH]; intros pre st HI; simpl.
  - rewrite app_nil_r. exact HI.
  - replace (pre ++ c :: l) with ((pre ++ [c]) ++ l) by (rewrite <- app_assoc; reflexivity).
    apply IH. apply step_inv. exact HI.
Qed.

Lemma lstrip_set_head p s : match lstrip_set p s with [] => True | x :: _ => p x = false end.
Proof. induction s as [|c s IH]; simpl; [exact I|]. destruct (p c) eqn:E; [exact IH | exact E]. Qed.

Lemma lstrip_set_snoc p l x : p x = false -> exists l', lstrip_set p (l ++ [x]) = l' ++ [x].
Proof.
  intros Hx. induction l as [|c l IH]; simpl.
  - rewrite Hx. exists []. reflexivity.
  - destruct (p c); [exact IH|]. exists (c :: l). reflexivity.
Qed.

Lemma strip_set_head p s : match strip_set p s with [] => True | x :: _ => p x = false end.
Proof.
  unfold strip_set. pose proof (lstrip_set_head p s) as H.
  destruct (lstrip_set p s) as [|x u]; [simpl; exact I|].
  simpl rev at 2.
  destruct (lstrip_set_snoc p (rev u) x H) as [l' E]. rewrite E. rewrite rev_app_distr. simpl. exact H.
Qed.

Lemma first_inv c : ws_split c = false -> SplitInv [c] (split_step sst0 c).
Proof.
  intros Hws. unfold split_step, sst0; simpl.
  assert (forall d e, SplitInv [c] (mksst SStart d e [c] [] [] [])) as Base.
  { intros d e. refine (mkSplitInv _ _ [] [] _ _ _ _ _ _ _ _ _ _); simpl; auto; discriminate. }
  destruct (ceq c c_bs); [apply Base|].
  destruct (ceq c c_lb); [apply Base|].
  destruct (ceq c c_rb); [apply Base|].
  rewrite Hws. apply Base.
Qed.

Lemma split_conserved s : conserved s (split_names s).
Proof.
  unfold conserved, split_names, split_names_seps.
  pose proof (strip_set_head ws_split s) as Hhead. fold (strip4 s) in Hhead.
  destruct (strip4 s) as [|c t] eqn:E.
  - exists []. simpl. repeat split; constructor.
  - unfold split_run. simpl fold_left.
    pose proof (fold_inv t [c] _ (first_inv c Hhead)) as [P S HP HS HL HT HSo HPn Hc Hsh He _].
    set (st := fold_left split_step t (split_step sst0 c)) in *.
    exists S. unfold split_result. simpl fst.
    rewrite HP. rewrite rev_involutive.
    replace (rev (rev (s_pend st ++ s_cur st) :: rev P)) with (P ++ [rev (s_pend st ++ s_cur st)])
      by (simpl; rewrite rev_involutive; reflexivity).
    repeat split.
    + rewrite app_length. simpl. unfold str, ch in *. lia.
    + rewrite interleave_snoc by exact HL. simpl in HT. rewrite HT. rewrite rev_app_distr. reflexivity.
    + exact HSo.
    + apply Forall_app. split; [exact HPn|]. constructor; [|constructor].
      intros E2. apply rev_nil, app_eq_nil in E2. exact (Hc (proj2 E2)).
Qed.

Definition mk := (ch * bool)%type.
Definition gm (g : str) : list mk := map (fun c => (c, true)) g.
Definition wm (w : str) : list mk := map (fun c => (c, false)) w.

Definition wcons (c : ch) (r : list (bool * str)) : list (bool * str) :=
  match r with (false, t) :: tl => (false, c :: t) :: tl | _ => (false, [c]) :: r end.
Definition gcons (c : ch) (r : list (bool * str)) : list (bool * str) :=
  match r with (true, t) :: tl => (true, c :: t) :: tl | _ => (true, [c]) :: r end.

Lemma runs_cons_f c M : runs ((c, false) :: M) = wcons c (runs M).
Proof. cbn [runs]. destruct (runs M) as [|[[|] t] tl]; reflexivity. Qed.
Lemma runs_cons_t c M : runs ((c, true) :: M) = gcons c (runs M).
Proof. cbn [runs]. destruct (runs M) as [|[[|] t] tl]; reflexivity. Qed.

Definition wapp (w : str) (r : list (bool * str)) : list (bool * str) :=
  match r with (false, t) :: tl => (false, w ++ t) :: tl | _ => (false, w) :: r end.
Lemma runs_wm w M : w <> [] -> runs (wm w ++ M) = wapp w (runs M).
Proof.
  intros Hne. induction w as [|c w IH]; [contradiction|]. cbn [wm map app]. fold (wm w).
  rewrite runs_cons_f. destruct w as [|c2 w].
  - cbn [wm map app]. unfold wcons, wapp. destruct (runs M) as [|[[|] t] tl]; reflexivity.
  - rewrite IH by discriminate. unfold wcons, wapp. destruct (runs M) as [|[[|] t] tl]; reflexivity.
Qed.

Definition starts_false (r : list (bool * str)) : Prop := match r with (true, _) :: _ => False | _ => True end.
Lemma runs_gm g M : g <> [] -> starts_false (runs M) -> runs (gm g ++ M) = (true, g) :: runs M.
Proof.
  intros Hne Hs. induction g as [|c g IH]; [contradiction|]. cbn [gm map app]. fold (gm g).
  rewrite runs_cons_t. destruct g as [|c2 g].
  - cbn [gm map app]. unfold gcons. destruct (runs M) as [|[[|] t] tl]; [reflexivity | contradiction | reflexivity].
  - rewrite IH by discriminate. reflexivity.
Qed.
Lemma wapp_starts_false w r : starts_false (wapp w r).
Proof. unfold wapp. destruct r as [|[[|] t] tl]; exact I. Qed.
Lemma wcons_starts_false c r : starts_false (wcons c r).
Proof. unfold wcons. destruct r as [|[[|] t] tl]; exact I. Qed.

(* The reference walk resumed inside a word.  In START_WHITESPACE the machine has put the characters of a word into
   the current name one by one, where the walk joins a word to cur only when it is complete: if the runs still to come
   begin with the rest of that word, it belongs to cur; then the walk goes on as usual.  This is what makes the
   statement of exact_go hold character by character. *)
Definition glue (r : list (bool * str)) (cur : str) : list str :=
  match r with (false, w) :: tl => ref_walk tl (cur ++ w) [] | _ => ref_walk r cur [] end.

Lemma nonempty_true (s : str) : s <> [] -> nonempty s = true.
Proof. destruct s; [contradiction | reflexivity]. Qed.
Lemma nonempty_app_l (a b : str) : a <> [] -> nonempty (a ++ b) = true.
Proof. destruct a; [contradiction | reflexivity]. Qed.

Lemma walk_word w tl cur g : cur <> [] -> is_and_word w = false ->
  ref_walk ((false, w) :: tl) cur g = ref_walk tl (cur ++ g ++ w) [].
Proof. intros Hc Hw. cbn [ref_walk]. rewrite Hw, (nonempty_true cur Hc). reflexivity. Qed.

Lemma glue_wapp w r cur : cur <> [] -> (forall t, is_and_word (w ++ t) = false) -> forall g,
  ref_walk (wapp w r) cur g = glue r (cur ++ g ++ w).
Proof.
  intros Hc Hw g. unfold wapp, glue. destruct r as [|[[|] t] tl].
  - rewrite walk_word; [reflexivity | exact Hc |]. specialize (Hw []). rewrite app_nil_r in Hw. exact Hw.
  - rewrite walk_word; [reflexivity | exact Hc |]. specialize (Hw []). rewrite app_nil_r in Hw. exact Hw.
  - rewrite walk_word; [|exact Hc | apply Hw]. rewrite <- !app_assoc. reflexivity.
Qed.

(* the reference walk: the candidate fails because of a word character *)
Lemma flushL g w0 c M cur : g <> [] -> cur <> [] -> (forall t, is_and_word (w0 ++ c :: t) = false) ->
  ref_walk (runs (gm g ++ wm (w0 ++ [c]) ++ M)) cur [] = glue (runs M) (cur ++ g ++ w0 ++ [c]).
Proof.
  intros Hg Hc Hw.
  assert (Hne : w0 ++ [c] <> []) by (destruct w0; discriminate).
  rewrite runs_gm; [|exact Hg | rewrite runs_wm by exact Hne; apply wapp_starts_false].
  rewrite runs_wm by exact Hne. cbn [ref_walk].
  rewrite glue_wapp; [reflexivity | exact Hc |]. intros t. rewrite <- app_assoc. apply Hw.
Qed.

(* ... because the word ends *)
Lemma restartL g w0 c M cur : g <> [] -> cur <> [] -> w0 <> [] -> is_and_word w0 = false ->
  ref_walk (runs (gm g ++ wm w0 ++ (c, true) :: M)) cur [] = ref_walk (runs ((c, true) :: M)) (cur ++ g ++ w0) [].
Proof.
  intros Hg Hc Hw0 Hna.
  assert (Hst : starts_false (runs (wm w0 ++ (c, true) :: M))) by (rewrite runs_wm by exact Hw0; apply wapp_starts_false).
  rewrite runs_gm by assumption. rewrite runs_wm by exact Hw0. rewrite runs_cons_t.
  cbn [ref_walk]. unfold wapp, gcons. destruct (runs M) as [|[[|] t] tl]; rewrite walk_word by assumption; reflexivity.
Qed.

(* a complete separator followed by the first character of the next name *)
Lemma cutL g w g2 c M cur : g <> [] -> g2 <> [] -> cur <> [] -> is_and_word w = true ->
  ref_walk (runs (gm g ++ wm w ++ gm g2 ++ (c, false) :: M)) cur [] = cur :: glue (runs M) [c].
Proof.
  intros Hg Hg2 Hc Hw.
  assert (Hwne : w <> []) by (destruct w; [discriminate | discriminate]).
  assert (E3 : runs ((c, false) :: M) = wcons c (runs M)) by apply runs_cons_f.
  assert (E2 : runs (gm g2 ++ (c, false) :: M) = (true, g2) :: wcons c (runs M)).
  { rewrite runs_gm; [rewrite E3; reflexivity | exact Hg2 | rewrite E3; apply wcons_starts_false]. }
  assert (E1 : runs (wm w ++ gm g2 ++ (c, false) :: M) = (false, w) :: (true, g2) :: wcons c (runs M)).
  { rewrite runs_wm by exact Hwne. rewrite E2. reflexivity. }
  rewrite runs_gm; [|exact Hg | rewrite E1; exact I]. rewrite E1.
  cbn [ref_walk]. rewrite Hw, (nonempty_true cur Hc).
  assert (Hhw : has_word ((true, g2) :: wcons c (runs M)) = true).
  { unfold has_word. cbn [existsb fst negb]. unfold wcons. destruct (runs M) as [|[[|] t] tl]; reflexivity. }
  rewrite Hhw. cbn [andb]. f_equal.
  unfold wcons, glue. destruct (runs M) as [|[[|] t] tl]; cbn [ref_walk nonempty andb app]; rewrite ?andb_false_r; reflexivity.
Qed.

Lemma startL c M cur : glue (runs ((c, false) :: M)) cur = glue (runs M) (cur ++ [c]).
Proof.
  rewrite runs_cons_f. unfold wcons, glue. destruct (runs M) as [|[[|] t] tl]; try reflexivity.
  rewrite <- app_assoc. reflexivity.
Qed.
Lemma start_sepL c M cur : glue (runs ((c, true) :: M)) cur = ref_walk (runs (gm [c] ++ M)) cur [].
Proof. change (gm [c] ++ M) with ((c, true) :: M). rewrite runs_cons_t. unfold gcons, glue. destruct (runs M) as [|[[|] t] tl]; reflexivity. Qed.

Lemma endL g w0 cur : g <> [] -> w0 <> [] -> cur <> [] ->
  ref_walk (runs (gm g ++ wm w0 ++ [])) cur [] = [cur ++ g ++ w0].
Proof.
  intros Hg Hw Hc. rewrite app_nil_r.
  assert (E : runs (wm w0) = [(false, w0)]).
  { pose proof (runs_wm w0 [] Hw) as E. rewrite app_nil_r in E. exact E. }
  rewrite runs_gm; [|exact Hg | rewrite E; exact I]. rewrite E. cbn [ref_walk has_word existsb].
  rewrite andb_false_r. rewrite (nonempty_true cur Hc). cbn [nonempty].
  rewrite nonempty_app_l by exact Hc. reflexivity.
Qed.

(* the candidate with the marks of Spec.C12 (at depth 0 a character is marked iff it is whitespace), and the
   unfinished name, both in reading order *)
Definition pendm (st : sst) : list mk := map (fun c => (c, ws_split c)) (rev (s_pend st)).
Definition curf (st : sst) : str := rev (s_cur st).
(* what the reference walk returns after the finished names, from state st and the marks M of the text still to
   come: the current name may end inside a word (START_WHITESPACE), or the marks of the candidate come first *)
Definition sr (st : sst) (M : list mk) : list str :=
  match s_step st with
  | SStart => glue (runs M) (curf st)
  | _ => ref_walk (runs (pendm st ++ M)) (curf st) []
  end.
(* the names returned if the text ends in st *)
Definition out (st : sst) : list str := fst (split_result st).

Lemma letter_plain n c : letter_at n c = true ->
  ceq c c_bs = false /\ ceq c c_lb = false /\ ceq c c_rb = false /\ ws_split c = false.
Proof.
  destruct n as [|[|[|n]]]; cbn [letter_at]; [unfold is_aA | unfold is_nN | unfold is_dD | discriminate];
    intros H; apply orb_true_iff in H; destruct H as [H|H]; apply N.eqb_eq in H; subst c; vm_compute; auto.
Qed.
Lemma special_facts : ws_split c_bs = false /\ ws_split c_lb = false /\ ws_split c_rb = false.
Proof. vm_compute. auto. Qed.

Lemma map_ws_gm g : allws g -> map (fun c => (c, ws_split c)) g = gm g.
Proof.
  unfold allws, gm. induction g as [|c g IH]; intros H; [reflexivity|]. cbn [forallb map] in *.
  apply andb_true_iff in H. destruct H as [H1 H2]. rewrite H1, IH by exact H2. reflexivity.
Qed.

Lemma curf_ne st : s_cur st <> [] -> curf st <> [].
Proof. unfold curf. intros H E. exact (H (rev_nil _ E)). Qed.

Lemma special_letters n : letter_at n c_bs = false /\ letter_at n c_lb = false.
Proof. destruct n as [|[|[|n]]]; split; reflexivity. Qed.

Lemma and_pre_marks l : forall n, and_pre_from n l = true -> map (fun c => (c, ws_split c)) l = wm l.
Proof.
  unfold wm. induction l as [|c l IH]; intros n H; [reflexivity|]. cbn [and_pre_from] in H.
  apply andb_true_iff in H. destruct H as [H1 H2]. cbn [map]. rewrite (proj2 (proj2 (proj2 (letter_plain n c H1)))), (IH _ H2). reflexivity.
Qed.

Lemma wm_snoc l c (M : list mk) : wm l ++ (c, false) :: M = wm (l ++ [c]) ++ M.
Proof. unfold wm. rewrite map_app, <- app_assoc. reflexivity. Qed.

Lemma sr_start st M : s_step st = SStart -> sr st M = glue (runs M) (curf st).
Proof. unfold sr. intros ->. reflexivity. Qed.
Lemma sr_cand st M : s_step st <> SStart -> sr st M = ref_walk (runs (pendm st ++ M)) (curf st) [].
Proof. unfold sr. destruct (s_step st); [contradiction|..]; reflexivity. Qed.
Lemma is_next_false s : s <> SNextWord -> is_next s = false.
Proof. destruct s; try reflexivity. contradiction. Qed.

(* the marks of a candidate: its whitespace is marked, its letters are not *)
Lemma shape_marks s q : s <> SStart -> shape s q ->
  exists w l w2, q = w ++ l ++ w2 /\ map (fun c => (c, ws_split c)) q = gm w ++ wm l ++ gm w2
                 /\ w <> [] /\ length l = letters s /\ and_pre l = true /\ tailws s w2.
Proof.
  intros Hs Hsh. assert (H : exists w l w2, q = w ++ l ++ w2 /\ w <> [] /\ allws w /\ length l = letters s /\ and_pre l = true
                                  /\ allws w2 /\ tailws s w2) by (destruct s; [contradiction|..]; exact Hsh).
  destruct H as (w & l & w2 & -> & Hw & Aw & Hl & Hp & A2 & Ht). exists w, l, w2.
  rewrite !map_app, (map_ws_gm _ Aw), (map_ws_gm _ A2), (and_pre_marks _ _ Hp). auto 7.
Qed.

(* what is pending: nothing; an incomplete candidate  ws+ letters  (part of the name, should it fail); a complete
   separator  ws+ and ws+ *)
Lemma pend_cases st : shape (s_step st) (rev (s_pend st)) ->
  (s_step st = SStart /\ s_pend st = [])
  \/ (exists w l, s_step st <> SStart /\ s_step st <> SNextWord /\ rev (s_pend st) = w ++ l /\ pendm st = gm w ++ wm l
                  /\ w <> [] /\ length l = letters (s_step st) /\ and_pre l = true)
  \/ (exists w l w2, s_step st = SNextWord /\ rev (s_pend st) = w ++ l ++ w2 /\ pendm st = gm w ++ wm l ++ gm w2
                     /\ w <> [] /\ w2 <> [] /\ is_and_word l = true).
Proof.
  unfold pendm. intros Hsh. destruct (s_step st) eqn:Es; [left; split; [reflexivity | exact (rev_nil _ Hsh)]|..]; right;
    (edestruct shape_marks as (w & l & w2 & E & Em & Hw & Hl & Hp & Ht); [|exact Hsh|]; [discriminate|]); cbn [letters tailws] in *.
  5:{ right. exists w, l, w2. rewrite and_word_pre, Hp, Hl. auto 7. }
  all: left; exists w, l; subst w2; cbn [gm map] in Em; rewrite !app_nil_r in E, Em;
    (split; [discriminate|]); (split; [discriminate|]); auto 6.
Qed.

Lemma word_step st c M d e : s_cur st <> [] -> shape (s_step st) (rev (s_pend st)) ->
  (s_step st <> SStart -> s_step st <> SNextWord -> letter_at (letters (s_step st)) c = false) ->
  rev (s_pieces st) ++ sr st ((c, false) :: M) = rev (s_pieces (s_word st c d e)) ++ sr (s_word st c d e) M.
Proof.
  intros Hc Hsh Hn. pose proof (curf_ne st Hc) as Hcf. unfold s_word.
  destruct (pend_cases st Hsh) as [[Est Ep]|[(w & l & N1 & N2 & Ep & Em & Hw & Hl & Hp)|(w & l & w2 & Est & Ep & Em & Hw & Hw2 & Ha)]].
  - rewrite Est. cbn [is_next]. rewrite (sr_start st) by exact Est. rewrite (sr_start (s_flush st c d e)) by reflexivity.
    unfold curf, s_flush. cbn [s_cur s_pieces]. rewrite Ep. cbn [app rev]. rewrite startL. reflexivity.
  - rewrite (is_next_false _ N2), (sr_cand st) by exact N1. rewrite (sr_start (s_flush st c d e)) by reflexivity.
    rewrite Em, <- app_assoc, wm_snoc.
    rewrite flushL; [|exact Hw | exact Hcf | intros t; apply not_and_ext; rewrite Hl; exact (Hn N1 N2)].
    unfold curf, s_flush. cbn [s_cur s_pieces rev]. rewrite rev_app_distr, Ep, <- !app_assoc. reflexivity.
  - rewrite Est. cbn [is_next]. rewrite (sr_cand st) by (rewrite Est; discriminate). rewrite (sr_start (s_cut st c d e)) by reflexivity.
    rewrite Em, <- !app_assoc. rewrite cutL by assumption.
    unfold curf, s_cut. cbn [s_cur s_pieces rev]. rewrite <- app_assoc. reflexivity.
Qed.

Lemma more_step st c M s' : next_more (s_step st) c = Some s' ->
  sr st ((c, ws_split c) :: M) = sr (s_more st c s') M.
Proof.
  intros Hn. destruct (next_more_steps _ _ _ Hn) as [H1 H2].
  rewrite (sr_cand st), (sr_cand (s_more st c s')) by assumption.
  unfold pendm, curf, s_more. cbn [s_cur s_pend rev]. rewrite map_app, <- app_assoc. reflexivity.
Qed.

Lemma short_not_and l n : length l = n -> (n < 3)%nat -> is_and_word l = false.
Proof. intros Hl Hn. rewrite and_word_pre, Hl. destruct n as [|[|[|n]]]; [apply andb_false_r..|lia]. Qed.

Lemma restart_step st c M : s_cur st <> [] -> shape (s_step st) (rev (s_pend st)) -> ws_split c = true ->
  can_restart (s_step st) = true -> sr st ((c, true) :: M) = sr (s_restart st c) M.
Proof.
  intros Hc Hsh Hws Hst. pose proof (curf_ne st Hc) as Hcf.
  rewrite (sr_cand (s_restart st c)) by discriminate.
  change (pendm (s_restart st c)) with [(c, ws_split c)]. change (curf (s_restart st c)) with (rev (s_pend st ++ s_cur st)).
  rewrite Hws. cbn [app].
  destruct (pend_cases st Hsh) as [[Est Ep]|[(w & l & N1 & N2 & Ep & Em & Hw & Hl & Hp)|(w & l & w2 & Est & _)]].
  - rewrite (sr_start st) by exact Est. rewrite Ep. apply start_sepL.
  - rewrite (sr_cand st) by exact N1. rewrite Em, <- app_assoc.
    assert (Hl3 : (0 < length l < 3)%nat) by (rewrite Hl; destruct (s_step st); cbn in *; try discriminate; try contradiction; lia).
    rewrite restartL; [|exact Hw | exact Hcf | intros ->; cbn in Hl3; lia | apply (short_not_and l _ eq_refl); lia].
    unfold curf. rewrite rev_app_distr, Ep. reflexivity.
  - rewrite Est in Hst. discriminate.
Qed.

Lemma end_step st : s_cur st <> [] -> shape (s_step st) (rev (s_pend st)) ->
  s_step st <> SFindA -> s_step st <> SNextWord -> out st = rev (s_pieces st) ++ sr st [].
Proof.
  intros Hc Hsh H1 H2. pose proof (curf_ne st Hc) as Hcf.
  unfold out, split_result. cbn [fst rev]. f_equal. rewrite rev_app_distr. fold (curf st).
  destruct (pend_cases st Hsh) as [[Est Ep]|[(w & l & N1 & N2 & Ep & Em & Hw & Hl & Hp)|(w & l & w2 & Est & _)]].
  - rewrite (sr_start st) by exact Est. rewrite Ep. cbn [rev app runs glue ref_walk]. rewrite app_nil_r, (nonempty_true _ Hcf). reflexivity.
  - rewrite (sr_cand st) by exact N1.
    assert (Hne : l <> []) by (intros ->; destruct (s_step st); cbn in Hl; try discriminate; contradiction).
    rewrite Em, Ep, <- app_assoc, endL by assumption. reflexivity.
  - contradiction.
Qed.

(* the text ends as strip4's does, in a character that is no whitespace; so at its end the machine is not in
   FIND_A or NEXT_WORD, which only whitespace leads to and in which split_result would not agree with the walk *)
Definition tail_ok (s : str) (st : sst) : Prop :=
  match s with
  | [] => s_step st <> SFindA /\ s_step st <> SNextWord
  | _ => ws_split (last s 0%N) = false
  end.

Lemma tail_ok_cons c r st st' : tail_ok (c :: r) st -> (r = [] -> s_step st' <> SFindA /\ s_step st' <> SNextWord) -> tail_ok r st'.
Proof.
  intros H Hr. destruct r as [|x r]; [apply Hr; reflexivity|]. exact H.
Qed.

(* marks and balance of the text that follows a state: after a backslash the next character is its partner *)
Definition marks_esc (esc : bool) (s : str) (d : N) : list mk :=
  if esc then match s with [] => [] | e :: r => (e, false) :: marks_go r d end else marks_go s d.
Definition balanced_esc (esc : bool) (s : str) (d : N) : bool :=
  if esc then match s with [] => (d =? 0)%N | _ :: r => balanced_go r d end else balanced_go s d.

Lemma exact_go s : forall st pre, SplitInv pre st -> balanced_esc (s_esc st) s (s_depth st) = true -> tail_ok s st ->
  out (fold_left split_step s st) = rev (s_pieces st) ++ sr st (marks_esc (s_esc st) s (s_depth st)).
Proof.
  induction s as [|c r IH]; intros st pre HI Hb Ht.
  { replace (marks_esc (s_esc st) [] (s_depth st)) with (@nil mk) by (destruct (s_esc st); reflexivity).
    destruct Ht as [T1 T2]. apply end_step; [apply (i_cur_ne _ _ HI) | apply (i_shape _ _ HI) | exact T1 | exact T2]. }
  pose proof (i_cur_ne _ _ HI) as Hcur. pose proof (i_shape _ _ HI) as Hsh. pose proof (i_deep _ _ HI) as Hd.
  pose proof (step_inv pre st c HI) as HI1.
  cbn [fold_left]. pose proof (split_step_eq st c) as E.
  (* the rest of the text, from the state st' reached by c *)
  assert (Kgo : forall st', split_step st c = st' ->
            balanced_esc (s_esc st') r (s_depth st') = true -> (r = [] -> s_step st' <> SFindA /\ s_step st' <> SNextWord) ->
            out (fold_left split_step r st') = rev (s_pieces st') ++ sr st' (marks_esc (s_esc st') r (s_depth st'))).
  { intros st' E1 Hb' Ht'. apply (IH st' (pre ++ [c])); [rewrite <- E1; exact HI1 | exact Hb' |].
    exact (tail_ok_cons c r st st' Ht Ht'). }
  destruct (s_esc st) eqn:He.
  { (* the partner of a backslash joins the current name *)
    pose proof (i_esc _ _ HI He) as Est. cbn [marks_esc balanced_esc] in *.
    rewrite (sr_start st) by exact Est. rewrite startL, E.
    rewrite (Kgo (esc_step st c) E); [rewrite (sr_start (esc_step st c)) by exact Est; reflexivity | exact Hb |].
    intros _. cbn [esc_step s_step]. rewrite Est. split; discriminate. }
  cbn [marks_esc balanced_esc] in *.
  (* a character of a name (backslash, brace, or not extending the candidate), after which the text goes on at depth d *)
  assert (Kword : forall d e, (s_step st <> SStart -> s_step st <> SNextWord -> letter_at (letters (s_step st)) c = false) ->
            split_step st c = s_word st c d e -> balanced_esc e r d = true ->
            out (fold_left split_step r (split_step st c)) = rev (s_pieces st) ++ sr st ((c, false) :: marks_esc e r d)).
  { intros d e Hnx Ew Hbr. rewrite (word_step st c (marks_esc e r d) d e Hcur Hsh Hnx), Ew.
    destruct (s_word_fields st c d e) as (S1 & _ & S3 & S4).
    rewrite (Kgo _ Ew); [rewrite S3, S4; reflexivity | rewrite S3, S4; exact Hbr | intros _; rewrite S1; split; discriminate]. }
  cbn [marks_go balanced_go] in *.
  destruct (ceq c c_bs) eqn:Ebs.
  { apply N.eqb_eq in Ebs. subst c.
    replace (match r with [] => [(c_bs, false)] | e :: r' => (c_bs, false) :: (e, false) :: marks_go r' (s_depth st) end)
      with ((c_bs, false) :: marks_esc true r (s_depth st)) by (destruct r; reflexivity).
    apply Kword; [intros; apply special_letters | exact E | exact Hb]. }
  destruct (ceq c c_lb) eqn:Elb.
  { apply N.eqb_eq in Elb. subst c. apply (Kword _ false); [intros; apply special_letters | exact E | exact Hb]. }
  destruct (ceq c c_rb) eqn:Erb.
  { destruct (s_depth st =? 0)%N eqn:Ed; [discriminate|]. apply N.eqb_neq in Ed.
    apply (Kword _ false); [intros H; elim (H (Hd Ed)) | unfold s_word; rewrite (Hd Ed); exact E | exact Hb]. }
  destruct (s_depth st =? 0)%N eqn:Ed; cbn [negb andb] in *.
  2:{ apply N.eqb_neq in Ed. apply (Kword _ false); [intros H; elim (H (Hd Ed)) | unfold s_word; rewrite (Hd Ed); exact E | exact Hb]. }
  apply N.eqb_eq in Ed.
  assert (Hlast : r = [] -> ws_split c = false) by (intros ->; exact Ht).
  destruct (next_more (s_step st) c) as [s'|] eqn:En.
  { rewrite (more_step st c _ s' En), E.
    apply (Kgo (s_more st c s') E); [exact Hb|].
    intros Hr. exact (next_more_ws _ _ _ En (Hlast Hr)). }
  destruct (ws_split c && can_restart (s_step st)) eqn:Er.
  { apply andb_true_iff in Er. destruct Er as [Hws Hst]. rewrite Hws.
    rewrite (restart_step st c _ Hcur Hsh Hws Hst), E.
    apply (Kgo (s_restart st c) E); [exact Hb|].
    intros Hr. rewrite (Hlast Hr) in Hws. discriminate. }
  rewrite (word_not_ws _ _ En Er), Ed.
  apply (Kword _ false); [intros; apply next_more_none; assumption | exact E | rewrite <- Ed; exact Hb].
Qed.

Lemma first_word c R : ref_walk (wcons c R) [] [] = glue R [c].
Proof. unfold wcons, glue. destruct R as [|[[|] t] tl]; cbn [ref_walk nonempty andb app]; rewrite ?andb_false_r; reflexivity. Qed.

Lemma strip_set_last p s : match strip_set p s with [] => True | x :: l => p (last (x :: l) 0%N) = false end.
Proof.
  unfold strip_set. pose proof (lstrip_set_head p (rev (lstrip_set p s))) as H.
  destruct (lstrip_set p (rev (lstrip_set p s))) as [|y u] eqn:E; [exact I|].
  cbn [rev]. destruct (rev u ++ [y]) as [|x l] eqn:E2; [exact I|]. rewrite <- E2.
  clear - H. induction (rev u) as [|z w IH]; [exact H|]. cbn [app]. destruct (w ++ [y]) eqn:E; [destruct w; discriminate|]. exact IH.
Qed.

Theorem split_exact s : C12.balanced (strip4 s) = true -> split_names s = ref_split s.
Proof.
  intros Hb. unfold split_names, split_names_seps, ref_split.
  pose proof (strip_set_head ws_split s) as Hhead. pose proof (strip_set_last ws_split s) as Hlast.
  fold (strip4 s) in Hhead, Hlast. unfold C12.balanced in Hb.
  destruct (strip4 s) as [|c t]; [reflexivity|].
  unfold split_run. cbn [fold_left]. fold (out (fold_left split_step t (split_step sst0 c))).
  pose proof (first_inv c Hhead) as HI1.
  unfold marks. cbn [marks_go balanced_go] in *.
  set (FL := fold_left split_step).
  unfold split_step in HI1 |- *. cbn [s_esc sst0 s_step is_next s_depth] in HI1 |- *.
  (* the first character starts the first name, at depth d; after a backslash its partner follows *)
  assert (Kfirst : forall d e, SplitInv [c] (s_flush sst0 c d e) -> balanced_esc e t d = true ->
            out (FL t (s_flush sst0 c d e)) = ref_walk (runs ((c, false) :: marks_esc e t d)) [] []).
  { intros d e HI Hbd. unfold FL. rewrite (exact_go t _ _ HI); [| exact Hbd |].
    - cbn [s_flush s_pieces s_cur s_step s_depth s_esc rev app]. rewrite runs_cons_f, first_word. reflexivity.
    - destruct t as [|x t']; [split; discriminate|]. exact Hlast. }
  destruct (ceq c c_bs) eqn:Ebs.
  { replace (match t with [] => [(c, false)] | e :: r' => (c, false) :: (e, false) :: marks_go r' 0 end)
      with ((c, false) :: marks_esc true t 0) by (destruct t; reflexivity).
    exact (Kfirst 0%N true HI1 Hb). }
  destruct (ceq c c_lb) eqn:Elb; [exact (Kfirst _ false HI1 Hb)|].
  destruct (ceq c c_rb) eqn:Erb; [discriminate|].
  cbn [N.eqb negb] in *. rewrite Hhead in *. exact (Kfirst _ false HI1 Hb).
Qed.

Lemma all_false_wm (M : list mk) : Forall (fun x => snd x = false) M -> M = wm (map fst M).
Proof.
  intros H. induction H as [|[c b] M Hx H IH]; [reflexivity|]. cbn in Hx. subst b. cbn [map wm fst]. unfold wm in IH. rewrite <- IH. reflexivity.
Qed.

Theorem protected_one_piece s : C12.balanced (strip4 s) = true -> strip4 s <> [] ->
  Forall (fun x => snd x = false) (marks (strip4 s)) -> split_names s = [map fst (marks (strip4 s))].
Proof.
  intros Hb Hne Hall. rewrite (split_exact s Hb). unfold ref_split.
  rewrite (all_false_wm _ Hall) at 1.
  assert (Hm : map fst (marks (strip4 s)) <> []).
  { unfold marks. destruct (strip4 s) as [|c t]; [contradiction|]. cbn [marks_go].
    destruct (ceq c c_bs); [destruct t; discriminate|]. destruct (ceq c c_lb); [discriminate|]. destruct (ceq c c_rb); discriminate. }
  pose proof (runs_wm (map fst (marks (strip4 s))) [] Hm) as E. rewrite app_nil_r in E. rewrite E.
  cbn [wapp runs ref_walk nonempty andb has_word existsb]. rewrite andb_false_r.
  destruct (map fst (marks (strip4 s))); [contradiction | reflexivity].
Qed.

Lemma marks_text s : forall d, map fst (marks_go s d) = s.
Proof.
  induction s as [s IH] using list_len_ind. intros d. destruct s as [|c r]; [reflexivity|]. cbn [marks_go].
  destruct (ceq c c_bs).
  - destruct r as [|e r']; [reflexivity|]. cbn [map fst]. rewrite IH by (simpl; lia). reflexivity.
  - destruct (ceq c c_lb); [|destruct (ceq c c_rb)]; cbn [map fst]; rewrite IH by (simpl; lia); reflexivity.
Qed.

Theorem protected_never_splits s : C12.balanced (strip4 s) = true -> strip4 s <> [] ->
  Forall (fun x => snd x = false) (marks (strip4 s)) -> split_names s = [strip4 s].
Proof.
  intros Hb Hne Hall. rewrite (protected_one_piece s Hb Hne Hall). unfold marks. rewrite marks_text. reflexivity.
Qed.

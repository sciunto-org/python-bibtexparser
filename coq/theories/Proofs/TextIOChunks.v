(* open() decodes a file in CHUNKS (io.TextIOWrapper reads 8192 bytes at a time and feeds an incremental decoder); Model/TextIO.v
   decodes the whole file at once.  These lemmas are why that is the same thing: decoding is compositional at character
   boundaries, newline translation is compositional wherever the cut does not follow a carriage return - the one place where
   CPython's IncrementalNewlineDecoder keeps a pending character, exactly for this reason. *)
From Coq Require Import List ZArith Bool Lia ZifyBool.
Import ListNotations.
From BP Require Import Model.TextIO Proofs.Common Proofs.TextIOProofs.
Local Open Scope Z_scope.

Lemma utf8_decode_encoded_app s a b : utf8_encode s = Some a ->
  utf8_decode (a ++ b) = option_map (app s) (utf8_decode b).
Proof.
  revert a. induction s as [|c s IH]; intros a H.
  - injection H as <-. cbn [app]. destruct (utf8_decode b); reflexivity.
  - rewrite utf8_encode_with in H. apply encode_with_cons in H as (Hs & a' & E & ->). rewrite <- utf8_encode_with in E.
    rewrite <- app_assoc, utf8_dec_enc_cp, (IH a' E) by exact Hs. destruct (utf8_decode b); reflexivity.
Qed.

(* a file cut at a character boundary: decoding the pieces one after the other is decoding the file *)
Theorem utf8_decode_app a b s : utf8_decode a = Some s ->
  utf8_decode (a ++ b) = option_map (app s) (utf8_decode b).
Proof. intro H. apply utf8_decode_encoded_app. apply utf8_canonical. exact H. Qed.

(* an error in a later piece is an error of the file, and an error of the file after a good piece is in the later piece *)
Corollary utf8_decode_app_none a b s : utf8_decode a = Some s -> (utf8_decode (a ++ b) = None <-> utf8_decode b = None).
Proof. intro Ha. rewrite (utf8_decode_app a b s Ha). destruct (utf8_decode b); cbn; split; congruence. Qed.

(* universal newlines: compositional wherever the first piece does not end in a carriage return *)
Definition ends_in_cr (s : list Z) : bool := match rev s with 13 :: _ => true | _ => false end.

Lemma ends_in_cr_cons (c : Z) a : a <> [] -> ends_in_cr (c :: a) = ends_in_cr a.
Proof.
  intro Hn. unfold ends_in_cr. cbn [rev]. destruct (rev a) as [|x r] eqn:E.
  - exfalso. apply Hn. apply (f_equal (@rev Z)) in E. rewrite rev_involutive in E. exact E.
  - reflexivity.
Qed.
Lemma ends_in_cr_tail (c : Z) a : ends_in_cr (c :: a) = false -> ends_in_cr a = false.
Proof. destruct a; [reflexivity|]. rewrite ends_in_cr_cons by discriminate. auto. Qed.

Lemma after_cr_app r b : r <> [] -> after_cr (r ++ b) = after_cr r ++ b.
Proof. destruct r as [|d r]; [intro H; contradiction H; reflexivity|]. intros _. cbn [app after_cr]. destruct (d =? 10); reflexivity. Qed.
Lemma ends_in_cr_after_cr r : ends_in_cr r = false -> ends_in_cr (after_cr r) = false.
Proof. destruct r as [|d r]; [auto|]. cbn [after_cr]. destruct (d =? 10); [apply ends_in_cr_tail | auto]. Qed.

Theorem nl_read_app a b : ends_in_cr a = false -> nl_read (a ++ b) = nl_read a ++ nl_read b.
Proof.
  induction a as [a IH] using list_len_ind. intro H. destruct a as [|c r]; [reflexivity|].
  cbn [app]. rewrite !nl_read_eq. pose proof (ends_in_cr_tail c r H) as Hr. destruct (Z.eqb_spec c 13) as [->|N]; cbn [app]; f_equal.
  - destruct r as [|d r']; [discriminate H|]. rewrite after_cr_app by discriminate.
    apply IH; [pose proof (after_cr_length (d :: r')); cbn [length] in *; lia | apply ends_in_cr_after_cr, Hr].
  - apply IH; [cbn [length]; lia | exact Hr].
Qed.

(* and NOT where it does: a CR LF pair cut in the middle *)
Theorem nl_read_app_refuted_at_cr : nl_read ([97; 13] ++ [10; 98]) <> nl_read [97; 13] ++ nl_read [10; 98].
Proof. vm_compute. discriminate. Qed.

(* the whole text layer, cut at a character boundary that does not follow a carriage return *)
Theorem read_text_utf8_app a b s : utf8_decode a = Some s -> ends_in_cr s = false ->
  read_text Utf8 (a ++ b) = option_map (app (nl_read s)) (read_text Utf8 b).
Proof.
  intros Ha Hc. unfold read_text. cbn [decode]. rewrite (utf8_decode_app a b s Ha).
  destruct (utf8_decode b) as [t|]; cbn [option_map]; [rewrite (nl_read_app s t Hc)|]; reflexivity.
Qed.

(* writing in pieces: a text handed to file.write in several pieces arrives as the encoding of the whole text - for utf-8 and
   latin-1 piece by piece, for utf-16 at the level of code units (the byte order mark is written once, at the start of the
   stream: CPython's incremental encoder keeps that bit of state, the model encodes the whole text) *)
Definition oapp (x y : option (list Z)) : option (list Z) :=
  match x, y with Some a, Some b => Some (a ++ b) | _, _ => None end.

Lemma encode_with_app f s t : encode_with f (s ++ t) = oapp (encode_with f s) (encode_with f t).
Proof.
  induction s as [|c s IH]; cbn [app encode_with].
  - destruct (encode_with f t); reflexivity.
  - destruct (scalar c); [|reflexivity]. rewrite IH.
    destruct (encode_with f s), (encode_with f t); cbn [option_map oapp]; try reflexivity. rewrite app_assoc. reflexivity.
Qed.

Theorem utf8_encode_app s t : utf8_encode (s ++ t) = oapp (utf8_encode s) (utf8_encode t).
Proof. exact (encode_with_app utf8_enc_cp s t). Qed.

Theorem units_encode_app s t : units_encode (s ++ t) = oapp (units_encode s) (units_encode t).
Proof. exact (encode_with_app units_of_cp s t). Qed.

Theorem latin1_encode_app s t : latin1_encode (s ++ t) = oapp (latin1_encode s) (latin1_encode t).
Proof.
  unfold latin1_encode. rewrite forallb_app.
  destruct (forallb _ s), (forallb _ t); reflexivity.
Qed.

Lemma bytes_le_app a b : bytes_le (a ++ b) = bytes_le a ++ bytes_le b.
Proof. unfold bytes_le. apply flat_map_app. Qed.

(* utf-16: one mark, then the units of the pieces one after the other *)
Theorem utf16_encode_pieces s t a b : units_encode s = Some a -> units_encode t = Some b ->
  utf16_encode (s ++ t) = Some (255 :: 254 :: bytes_le a ++ bytes_le b).
Proof.
  intros Ha Hb. unfold utf16_encode. rewrite units_encode_app, Ha, Hb. cbn [oapp option_map]. rewrite bytes_le_app. reflexivity.
Qed.

(* Proofs for C10 (Model/Enclosing.v against Spec/C10.v). *)
From Coq Require Import List NArith ZArith Bool Lia String.
From BP Require Import Base.Chars Model.Blocks Gen.Constants Model.Enclosing Spec.C10 Proofs.Common
  Proofs.LibAddProofs.
Import ListNotations.
Local Open Scope Z_scope.

Lemma ceq_eq a b : ceq a b = true <-> a = b.
Proof. unfold ceq. apply N.eqb_eq. Qed.
Lemma ceq_refl a : ceq a a = true.
Proof. apply ceq_eq. reflexivity. Qed.

Lemma snoc_cons_inv {T} (w : list T) x c r : r <> [] -> w ++ [x] = c :: r -> exists w', w = c :: w' /\ r = w' ++ [x].
Proof.
  intros Hr H. destruct w as [|a w]; simpl in H; inversion H; subst.
  - contradiction.
  - exists w. split; reflexivity.
Qed.

(* "the character before position |w| is a backslash", when the text w is preceded by a character that is a backslash iff pbs *)
Definition ends_bs_from (pbs : bool) (w : str) : Prop := (w = [] /\ pbs = true) \/ ends_bs w.

Lemma ends_bs_cons c w : ends_bs (c :: w) <-> ends_bs_from (ceq c c_bs) w.
Proof.
  unfold ends_bs_from, ends_bs. split.
  - intros [p H]. destruct p as [|a p]; simpl in H; inversion H; subst.
    + left. split; [reflexivity | apply ceq_refl].
    + right. exists p. reflexivity.
  - intros [[H1 H2]|[p H]].
    + subst. apply ceq_eq in H2. subst. exists []. reflexivity.
    + subst. exists (c :: p). reflexivity.
Qed.

Lemma ends_bs_from_cons pbs c w : ends_bs_from pbs (c :: w) <-> ends_bs_from (ceq c c_bs) w.
Proof.
  unfold ends_bs_from at 1. rewrite ends_bs_cons. split; [intros [[H _]|H]; [discriminate | exact H] | intros H; right; exact H].
Qed.

Lemma ends_bs_from_false w : ends_bs_from false w <-> ends_bs w.
Proof. unfold ends_bs_from. split; [intros [[_ H]|H]; [discriminate | exact H] | intros H; right; exact H]. Qed.
Lemma ends_bs_from_false_nil : ~ ends_bs_from false [].
Proof. intros [[_ H]|[p H]]; [discriminate | destruct p; discriminate]. Qed.

(* The loop of _is_single_enclosed_piece after its first round, before the last character: it returns False at an
   active '}' that closes the opening brace (at an active double quote at depth 0, for a quoted value), else it goes
   on with the depth moved by [delta]. *)
Lemma scan_step fb pbs d c r : r <> [] ->
  scan fb false pbs d (c :: r)
  = if negb pbs && (if fb then ceq c c_rb && (d - 1 =? 0) else ceq c c_quote && (d =? 0)) then false
    else scan fb false (ceq c c_bs) (d + delta pbs c) r.
Proof.
  intros Hr. cbn [scan]. unfold delta.
  replace (match r with [] => true | _ :: _ => false end) with false by (destruct r; [contradiction | reflexivity]).
  destruct pbs; [rewrite Z.add_0_r; reflexivity|].
  destruct (ceq c c_lb) eqn:E1; [apply ceq_eq in E1; subst c; destruct fb; reflexivity|].
  destruct (ceq c c_rb) eqn:E2; [apply ceq_eq in E2; subst c; destruct fb, (d - 1 =? 0); reflexivity|].
  rewrite Z.add_0_r, !andb_true_r. destruct fb; [rewrite andb_false_r|rewrite andb_true_r]; reflexivity.
Qed.

Lemma scan_last fb pbs d c : scan fb false pbs d [c] = negb pbs && (negb fb || ceq c c_rb && (d - 1 =? 0)).
Proof.
  cbn [scan]. rewrite !andb_false_r. destruct pbs; [reflexivity|].
  destruct (ceq c c_lb) eqn:E1; [apply ceq_eq in E1; subst c; destruct fb; reflexivity|].
  destruct (ceq c c_rb), fb, (d - 1 =? 0); reflexivity.
Qed.

Lemma stop_iff pbs c q d k : negb pbs && (ceq c q && (d =? k)) = true <-> pbs = false /\ c = q /\ d = k.
Proof.
  split.
  - intros H. apply andb_prop in H as [P H]. apply andb_prop in H as [C D].
    apply negb_true_iff in P. apply ceq_eq in C. apply Z.eqb_eq in D. auto.
  - intros (-> & -> & ->). cbn [negb andb]. rewrite ceq_refl, Z.eqb_refl. reflexivity.
Qed.

(* [outer_brace] from the middle of the scan: s is what is left to read, pbs says whether the character before it is a
   backslash, d is the depth reached so far *)
Definition BraceOK (pbs : bool) (d : Z) (s : str) : Prop :=
  (exists w, s = w ++ [c_rb] /\ ~ ends_bs_from pbs w)
  /\ d + depth_from pbs s = 0
  /\ (forall p t, s = p ++ t -> t <> [] -> d + depth_from pbs p > 0).

Lemma BraceOK_single pbs d c : d > 0 -> (BraceOK pbs d [c] <-> pbs = false /\ c = c_rb /\ d = 1).
Proof.
  intros Hd. unfold BraceOK. split.
  - intros ((w & Hw & Hne) & Hz & _).
    symmetry in Hw. apply app_eq_unit in Hw as [[-> [= <-]]|[_ [=]]].
    destruct pbs.
    + exfalso. apply Hne. left. split; reflexivity.
    + simpl in Hz. unfold delta in Hz. simpl in Hz. repeat split; lia.
  - intros (-> & -> & ->). split; [|split].
    + exists []. split; [reflexivity | apply ends_bs_from_false_nil].
    + reflexivity.
    + intros p t H Ht. destruct p as [|a p]; simpl; [lia|].
      exfalso. simpl in H. inversion H as [[Ha Hp]]. symmetry in Hp. apply app_eq_nil in Hp. destruct Hp as [_ Hp]. contradiction.
Qed.

Lemma BraceOK_cons pbs d c r : d > 0 -> r <> [] ->
  (BraceOK pbs d (c :: r) <-> d + delta pbs c > 0 /\ BraceOK (ceq c c_bs) (d + delta pbs c) r).
Proof.
  intros Hd Hr. unfold BraceOK. cbn [depth_from]. split.
  - intros ((w & Hw & Hne) & Hz & Hp).
    destruct (snoc_cons_inv w c_rb c r Hr (eq_sym Hw)) as (w' & -> & ->).
    pose proof (Hp [c] _ eq_refl Hr) as H1. cbn [depth_from] in H1.
    split; [lia|]. split; [|split; [lia|]].
    + exists w'. split; [reflexivity|]. intros H. apply Hne, ends_bs_from_cons, H.
    + intros p t E Ht. specialize (Hp (c :: p) t (f_equal (cons c) E) Ht). cbn [depth_from] in Hp. lia.
  - intros (H1 & (w & -> & Hne) & Hz & Hp). split; [|split; [lia|]].
    + exists (c :: w). split; [reflexivity|]. intros H. apply Hne, (ends_bs_from_cons pbs), H.
    + intros [|a p] t E Ht; cbn [depth_from]; [lia|]. injection E as <- E. specialize (Hp p t E Ht). lia.
Qed.

Lemma scan_brace s : forall pbs d, d > 0 -> (scan true false pbs d s = true <-> BraceOK pbs d s).
Proof.
  induction s as [|c r IH]; intros pbs d Hd.
  - simpl. split; [discriminate|]. intros ((w & Hw & _) & _). destruct w; discriminate.
  - destruct r as [|c2 r'].
    + rewrite scan_last, (BraceOK_single pbs d c Hd). cbn [negb orb]. rewrite stop_iff. split; intros (A & B & C); repeat split; (assumption || lia).
    + assert (Hr : c2 :: r' <> []) by discriminate.
      rewrite (scan_step true pbs d c _ Hr), (BraceOK_cons pbs d c _ Hd Hr).
      destruct (negb pbs && (ceq c c_rb && (d - 1 =? 0))) eqn:S.
      * (* the opening brace is closed before the end *)
        apply stop_iff in S. destruct S as (-> & -> & S). split; [discriminate | intros [H _]; cbn in H; lia].
      * (* otherwise the depth stays positive: from d > 0 it reaches 0 only by an active '}' at d = 1 *)
        assert (H : d + delta pbs c > 0).
        { unfold delta. destruct pbs; [lia|]. destruct (ceq c c_lb); [lia|]. destruct (ceq c c_rb); [|lia].
          apply Z.eqb_neq in S. lia. }
        rewrite (IH _ _ H). tauto.
Qed.

(* [outer_quote] from the middle of the scan, in the same state *)
Definition QuoteOK (pbs : bool) (d : Z) (s : str) : Prop :=
  (forall w c, s = w ++ [c] -> ~ ends_bs_from pbs w)
  /\ (forall a b, s = a ++ c_quote :: b -> b <> [] -> ends_bs_from pbs a \/ d + depth_from pbs a <> 0).

Lemma QuoteOK_single pbs d c : QuoteOK pbs d [c] <-> pbs = false.
Proof.
  unfold QuoteOK. split.
  - intros [H _]. destruct pbs; [|reflexivity]. exfalso. apply (H [] c eq_refl). left. split; reflexivity.
  - intros ->. split.
    + intros w c' E. symmetry in E. apply app_eq_unit in E as [[-> _]|[_ [=]]]. apply ends_bs_from_false_nil.
    + intros a b E Hb. exfalso. destruct a as [|x a]; simpl in E; inversion E as [[H1 H2]]; subst.
      * contradiction.
      * destruct a; discriminate.
Qed.

Lemma QuoteOK_cons pbs d c r : r <> [] ->
  (QuoteOK pbs d (c :: r) <-> ~ (pbs = false /\ c = c_quote /\ d = 0) /\ QuoteOK (ceq c c_bs) (d + delta pbs c) r).
Proof.
  intros Hr. unfold QuoteOK. split.
  - intros [H1 H2]. split; [|split].
    + (* an active quote at depth 0 with text after it *)
      intros (-> & -> & ->). destruct (H2 [] r eq_refl Hr) as [H|H]; [exact (ends_bs_from_false_nil H) | exact (H eq_refl)].
    + intros w c' E H. apply (H1 (c :: w) c' (f_equal (cons c) E)), ends_bs_from_cons, H.
    + intros a b E Hb. destruct (H2 (c :: a) b (f_equal (cons c) E) Hb) as [H|H]; cbn [depth_from] in H.
      * left. apply ends_bs_from_cons in H. exact H.
      * right. lia.
  - intros (H0 & H1 & H2). split.
    + intros w c' E H. destruct (snoc_cons_inv w c' c r Hr (eq_sym E)) as (w' & -> & Er).
      apply ends_bs_from_cons in H. exact (H1 w' c' Er H).
    + intros [|x a] b E Hb; injection E as -> E; cbn [depth_from].
      * destruct pbs; [left; left; split; reflexivity|]. right. intros Hd. apply H0. repeat split; lia.
      * destruct (H2 a b E Hb) as [H|H]; [left; apply ends_bs_from_cons; exact H | right; lia].
Qed.

Lemma scan_quote s : forall pbs d, s <> [] -> (scan false false pbs d s = true <-> QuoteOK pbs d s).
Proof.
  induction s as [|c r IH]; intros pbs d Hs; [contradiction|].
  destruct r as [|c2 r'].
  - rewrite scan_last, QuoteOK_single. cbn [negb orb]. rewrite andb_true_r. apply negb_true_iff.
  - assert (Hr : c2 :: r' <> []) by discriminate.
    rewrite (scan_step false pbs d c _ Hr), (QuoteOK_cons pbs d c _ Hr), <- stop_iff.
    destruct (negb pbs && (ceq c c_quote && (d =? 0))).
    + split; [discriminate | intros [H _]; exfalso; apply H; reflexivity].
    + rewrite (IH _ _ Hr). split; [intros H; split; [discriminate | exact H] | tauto].
Qed.

Lemma depth_lb x : depth (c_lb :: x) = 1 + depth_from false x.
Proof. reflexivity. Qed.
Lemma depth_quote x : depth (c_quote :: x) = depth_from false x.
Proof. reflexivity. Qed.

Lemma last_ch_snoc c w x : last_ch (c :: w ++ [x]) = x.
Proof. unfold last_ch. change (c :: w ++ [x]) with ((c :: w) ++ [x]). apply last_last. Qed.

Lemma inner_snoc c w x : inner (c :: w ++ [x]) = w.
Proof. unfold inner. simpl. apply removelast_last. Qed.

Lemma single_brace w : is_single_enclosed_piece (c_lb :: w ++ [c_rb]) = true <-> outer_brace (c_lb :: w ++ [c_rb]) w.
Proof.
  unfold is_single_enclosed_piece. rewrite last_ch_snoc, !ceq_refl. cbn [andb negb].
  change (scan true true false 0 (c_lb :: w ++ [c_rb])) with (scan true false false 1 (w ++ [c_rb])).
  rewrite (scan_brace (w ++ [c_rb]) false 1) by lia.
  unfold BraceOK, outer_brace. rewrite depth_lb. split.
  - intros ((w' & Hw & Hne) & Hz & Hp). apply app_inj_tail in Hw as [<- _].
    split; [reflexivity|]. split; [rewrite <- ends_bs_from_false; exact Hne|]. split; [lia|].
    intros [|a p] s E Hpn Hsn; [contradiction|]. injection E as <- E. rewrite depth_lb. specialize (Hp p s E Hsn). lia.
  - intros (_ & Hne & Hz & Hp). split; [|split; [lia|]].
    + exists w. split; [reflexivity | rewrite ends_bs_from_false; exact Hne].
    + intros p t E Ht. specialize (Hp (c_lb :: p) t (f_equal (cons c_lb) E) ltac:(discriminate) Ht).
      rewrite depth_lb in Hp. lia.
Qed.

Lemma single_quote w : is_single_enclosed_piece (c_quote :: w ++ [c_quote]) = true <-> outer_quote (c_quote :: w ++ [c_quote]) w.
Proof.
  unfold is_single_enclosed_piece. rewrite last_ch_snoc, !ceq_refl. change (ceq c_quote c_lb) with false. cbn [andb negb].
  assert (Hne : w ++ [c_quote] <> []) by (destruct w; discriminate).
  replace (scan false true false 0 (c_quote :: w ++ [c_quote])) with (scan false false false 0 (w ++ [c_quote]))
    by (destruct (w ++ [c_quote]); [contradiction | reflexivity]).
  rewrite (scan_quote (w ++ [c_quote]) false 0 Hne).
  unfold QuoteOK, outer_quote. split.
  - intros [H1 H2]. split; [reflexivity|]. split; [rewrite <- ends_bs_from_false; exact (H1 w c_quote eq_refl)|].
    intros a b ->. rewrite depth_quote, <- ends_bs_from_false.
    apply (H2 a (b ++ [c_quote])); [rewrite <- app_assoc; reflexivity | destruct b; discriminate].
  - intros (_ & Hnb & Hq). split.
    + intros w' c' E. apply app_inj_tail in E as [<- _]. rewrite ends_bs_from_false. exact Hnb.
    + intros a b E Hb. destruct (exists_last Hb) as (b' & x & ->).
      rewrite app_comm_cons, app_assoc in E. apply app_inj_tail in E as [E _].
      rewrite ends_bs_from_false, <- depth_quote. exact (Hq a b' E).
Qed.

(* a value that passes the shape test at the top of _is_single_enclosed_piece is its inner part in braces or in quotes *)
Lemma single_shape c0 c1 r : let v := c0 :: c1 :: r in is_single_enclosed_piece v = true ->
  (c0 = c_lb /\ v = c_lb :: inner v ++ [c_rb]) \/ (c0 = c_quote /\ v = c_quote :: inner v ++ [c_quote]).
Proof.
  intros v. assert (D : v = c0 :: inner v ++ [last_ch v]).
  { unfold v, inner, last_ch. f_equal. change (last (c0 :: c1 :: r) 0%N) with (last (c1 :: r) 0%N).
    apply (@app_removelast_last _ (c1 :: r)). discriminate. }
  unfold is_single_enclosed_piece. subst v. cbv iota beta. set (v := c0 :: c1 :: r) in *.
  destruct (ceq c0 c_lb && ceq (last_ch v) c_rb) eqn:E1.
  - apply andb_true_iff in E1 as [A B]. apply ceq_eq in A, B. rewrite A, B in D. auto.
  - destruct (ceq c0 c_quote && ceq (last_ch v) c_quote) eqn:E2; [|cbn [negb andb]; discriminate].
    apply andb_true_iff in E2 as [A B]. apply ceq_eq in A, B. rewrite A, B in D. auto.
Qed.

Lemma outer_brace_fun v w w' : outer_brace v w -> outer_brace v w' -> w = w'.
Proof. intros (E & _) (E' & _). rewrite E in E'. inversion E' as [H]. apply app_inj_tail in H. tauto. Qed.

(* _strip_enclosing after value.strip(): strip_enclosing value = strip_core (strip value) *)
Definition strip_core (v : str) : str * str :=
  match v with
  | c0 :: _ :: _ => if is_single_enclosed_piece v then (inner v, [c0]) else (v, no_enclosing)
  | _ => (v, no_enclosing)
  end.

Lemma strip_enclosing_core value : strip_enclosing value = strip_core (strip value).
Proof. reflexivity. Qed.

Lemma strip_core_snoc c0 t x :
  strip_core (c0 :: t ++ [x]) =
  if is_single_enclosed_piece (c0 :: t ++ [x]) then (t, [c0]) else (c0 :: t ++ [x], no_enclosing).
Proof.
  unfold strip_core. destruct t as [|a t]; [reflexivity|].
  cbn [app]. change (c0 :: a :: t ++ [x]) with (c0 :: (a :: t) ++ [x]). rewrite inner_snoc. reflexivity.
Qed.

Lemma strip_core_spec v :
  (forall w, outer_brace v w -> strip_core v = (w, [c_lb]))
  /\ (forall w, outer_quote v w -> strip_core v = (w, [c_quote]))
  /\ ((forall w, ~ outer_brace v w) -> (forall w, ~ outer_quote v w) -> strip_core v = (v, no_enclosing)).
Proof.
  split; [|split].
  - intros w H. pose proof H as (E & _). subst v. rewrite strip_core_snoc.
    apply single_brace in H. rewrite H. reflexivity.
  - intros w H. pose proof H as (E & _). subst v. rewrite strip_core_snoc.
    apply single_quote in H. rewrite H. reflexivity.
  - intros Hb Hq. destruct v as [|c0 [|c1 r]]; try reflexivity.
    unfold strip_core.
    destruct (is_single_enclosed_piece (c0 :: c1 :: r)) eqn:E; [|reflexivity].
    exfalso. destruct (single_shape c0 c1 r E) as [[-> D]|[-> D]]; rewrite D in E.
    + apply single_brace in E. rewrite <- D in E. exact (Hb _ E).
    + apply single_quote in E. rewrite <- D in E. exact (Hq _ E).
Qed.

Theorem strip_one_layer (value : str) :
  let v := strip value in
  (forall w, outer_brace v w -> strip_enclosing value = (w, [c_lb]))
  /\ (forall w, outer_quote v w -> strip_enclosing value = (w, [c_quote]))
  /\ ((forall w, ~ outer_brace v w) -> (forall w, ~ outer_quote v w) -> strip_enclosing value = (v, no_enclosing)).
Proof. rewrite strip_enclosing_core. exact (strip_core_spec (strip value)). Qed.

Lemma enclose_reuse c w e air : reuse c = true ->
  enclose c (VStr w) (Some (VStr e)) air
  = if str_eqb e [c_lb] then Val (VStr (c_lb :: w ++ [c_rb]))
    else if str_eqb e [c_quote] then Val (VStr (c_quote :: w ++ [c_quote]))
    else if str_eqb e no_enclosing then Val (VStr w) else Raise exc_ValueError.
Proof. intros H. unfold enclose. cbn [fmt_value]. rewrite H. reflexivity. Qed.

Lemma reuse_restores_core c v air : reuse c = true ->
  enclose c (VStr (fst (strip_core v))) (Some (VStr (snd (strip_core v)))) air = Val (VStr v).
Proof.
  intros H. rewrite (enclose_reuse c _ _ air H). destruct v as [|c0 [|c1 r]]; try reflexivity.
  unfold strip_core. destruct (is_single_enclosed_piece (c0 :: c1 :: r)) eqn:E; [|reflexivity].
  destruct (single_shape c0 c1 r E) as [[-> D]|[-> D]]; cbn [fst snd]; rewrite <- D; reflexivity.
Qed.

Theorem reuse_restores_strip c value air : reuse c = true ->
  enclose c (VStr (fst (strip_enclosing value))) (Some (VStr (snd (strip_enclosing value)))) air = Val (VStr (strip value)).
Proof. intros H. rewrite strip_enclosing_core. exact (reuse_restores_core c (strip value) air H). Qed.

Theorem reuse_restores c v air : reuse c = true -> strip v = v ->
  enclose c (VStr (fst (strip_enclosing v))) (Some (VStr (snd (strip_enclosing v)))) air = Val (VStr v).
Proof. intros H E. rewrite (reuse_restores_strip c v air H). rewrite E. reflexivity. Qed.

Definition wf_cfg (c : addcfg) : Prop := default_enclosing c = [c_lb] \/ default_enclosing c = [c_quote].

Lemma wrap_lb t : wrap c_lb t = c_lb :: t ++ [c_rb]. Proof. reflexivity. Qed.
Lemma wrap_quote t : wrap c_quote t = c_quote :: t ++ [c_quote]. Proof. reflexivity. Qed.

Lemma wf_cfg_delim c : wf_cfg c -> exists q, default_enclosing c = [q] /\ (q = c_lb \/ q = c_quote).
Proof. intros [H|H]; [exists c_lb | exists c_quote]; auto. Qed.

Lemma enclose_fresh c v md air q txt :
  reuse c = false \/ not_none md = None -> default_enclosing c = [q] -> q = c_lb \/ q = c_quote -> fmt_value v = Some txt ->
  enclose c v md air = Val (if air && negb (enclose_integers c) && is_integer v then v else VStr (wrap q txt)).
Proof.
  intros Hmd Hd Hq Hf. unfold enclose. rewrite Hf.
  replace (if reuse c then not_none md else None) with (@None value)
    by (destruct Hmd as [H|H]; rewrite H; [|destruct (reuse c)]; reflexivity).
  rewrite Hd. destruct (air && negb (enclose_integers c) && is_integer v); [reflexivity|].
  destruct Hq as [-> | ->]; reflexivity.
Qed.

Lemma enclose_default c v txt air q :
  fmt_value v = Some txt -> default_enclosing c = [q] -> (q = c_lb \/ q = c_quote) ->
  forall md, (reuse c = false \/ not_none md = None) ->
  (air && negb (enclose_integers c) && is_integer v = false) ->
  enclose c v md air = Val (VStr (wrap q txt)).
Proof. intros Hf Hd Hq md Hmd Hint. rewrite (enclose_fresh c v md air q txt Hmd Hd Hq Hf), Hint. reflexivity. Qed.

Lemma wrap_neq q txt : wrap q txt <> txt.
Proof. intros H. apply (f_equal (@List.length ch)) in H. unfold wrap in H. simpl in H. rewrite app_length in H. simpl in H. lia. Qed.

Theorem int_rule c v md : wf_cfg c -> (reuse c = false \/ not_none md = None) -> is_integer v = true ->
  (exists r, enclose c v md true = Val r)
  /\ (enclose c v md true = Val v <-> enclose_integers c = false)
  /\ (enclose_integers c = true ->
      exists txt q, fmt_value v = Some txt /\ default_enclosing c = [q] /\ enclose c v md true = Val (VStr (wrap q txt)))
  /\ (exists txt q, fmt_value v = Some txt /\ default_enclosing c = [q] /\ enclose c v md false = Val (VStr (wrap q txt))).
Proof.
  intros Hwf Hmd Hi. destruct (wf_cfg_delim c Hwf) as (q & Hd & Hq).
  assert (Hf : exists txt, fmt_value v = Some txt) by (destruct v; try discriminate; eexists; reflexivity).
  destruct Hf as [txt Hf]. rewrite !(enclose_fresh c v md _ q txt Hmd Hd Hq Hf), Hi.
  destruct (enclose_integers c); cbn [andb negb].
  - split; [eexists; reflexivity|]. split; [|split; [intros _|]; exists txt, q; auto].
    (* a value is never its own text in delimiters *)
    split; [|discriminate]. intros [= <-]. injection Hf as Hf. destruct (wrap_neq _ _ Hf).
  - split; [eexists; reflexivity|]. split; [split; reflexivity|]. split; [discriminate|]. exists txt, q; auto.
Qed.

Theorem default_enclosing_rule c v txt md air : wf_cfg c -> (reuse c = false \/ not_none md = None) ->
  fmt_value v = Some txt -> (air = false \/ is_integer v = false) ->
  exists q, default_enclosing c = [q] /\ enclose c v md air = Val (VStr (wrap q txt)).
Proof.
  intros Hwf Hmd Hf Hn. destruct (wf_cfg_delim c Hwf) as (q & Hd & Hq). exists q. split; [exact Hd|].
  rewrite (enclose_fresh c v md air q txt Hmd Hd Hq Hf).
  destruct Hn as [-> | ->]; [|rewrite andb_false_r]; reflexivity.
Qed.

Lemma find_app {T} (p : T -> bool) a b : find p (a ++ b) = match find p a with Some x => Some x | None => find p b end.
Proof. induction a as [|x a IH]; simpl; [reflexivity|]. destruct (p x); [reflexivity | exact IH]. Qed.

Definition str_of (v : value) : str := match v with VStr s => s | _ => [] end.
Definition stripped_field (f f' : field) : Prop :=
  exists s, fval f = VStr s /\ f' = mkfield (fkey f) (VStr (fst (strip_enclosing s))) (fline f).
Definition recorded (f : field) : value := VStr (snd (strip_enclosing (str_of (fval f)))).

Lemma remove_fields_spec fs : forall md0 fs' md, remove_fields fs md0 = Val (fs', md) ->
  Forall2 stripped_field fs fs'
  /\ (forall k, dict_get md k = match last_field k fs with Some f => Some (recorded f) | None => dict_get md0 k end).
Proof.
  induction fs as [|f r IH]; intros md0 fs' md H; cbn [remove_fields] in H.
  - inversion H; subst. split; [constructor | intros k; reflexivity].
  - destruct (fval f) as [s| | | | | | | |] eqn:Ev; cbn [strip_value] in H; try discriminate.
    destruct (strip_enclosing s) as [w e] eqn:Es.
    destruct (remove_fields r (dict_set md0 (fkey f) (VStr e))) as [[r' md']| |] eqn:Er; try discriminate.
    inversion H; subst. destruct (IH _ _ _ Er) as [F G]. split.
    + constructor; [|exact F]. exists s. split; [exact Ev|]. rewrite Es. reflexivity.
    + intros k. rewrite G. unfold last_field. cbn [rev]. rewrite find_app. cbn [find fkey].
      destruct (find (fun f0 => str_eqb k (fkey f0)) (rev r)); [reflexivity|].
      rewrite dict_get_set. destruct (str_eqb k (fkey f)); [|reflexivity].
      unfold recorded. rewrite Ev. simpl. rewrite Es. reflexivity.
Qed.

Lemma stripped_field_keys fs fs' : Forall2 stripped_field fs fs' -> map fkey fs' = map fkey fs /\ map fline fs' = map fline fs.
Proof.
  intros H. induction H as [|f f' r r' (s & _ & ->) _ [I1 I2]]; [split; reflexivity|].
  simpl. rewrite I1, I2. split; reflexivity.
Qed.

Theorem remove_entry_spec h t k fs b' : remove_block (BEntry h t k fs) = Val b' ->
  exists fs' md,
    b' = BEntry (set_meta h remove_enclosing_metadata_key (VDict md)) t k fs'
    /\ Forall2 stripped_field fs fs'
    /\ map fkey fs' = map fkey fs /\ map fline fs' = map fline fs
    /\ (forall k', dict_get md k' = match last_field k' fs with Some f => Some (recorded f) | None => None end).
Proof.
  simpl. destruct (remove_fields fs []) as [[fs' md]| |] eqn:E; try discriminate.
  intros H. inversion H; subst. destruct (remove_fields_spec _ _ _ _ E) as [F G].
  destruct (stripped_field_keys _ _ F) as [K1 K2].
  exists fs', md. repeat split; try assumption.
Qed.

Theorem remove_string_spec h k v b' : remove_block (BString h k v) = Val b' ->
  exists s, v = VStr s
    /\ b' = BString (set_meta h remove_enclosing_metadata_key (VStr (snd (strip_enclosing s)))) k (VStr (fst (strip_enclosing s))).
Proof.
  simpl. destruct v as [s| | | | | | | |]; simpl; try discriminate.
  destruct (strip_enclosing s) as [w e] eqn:Es. intros H. inversion H; subst. exists s. rewrite Es. split; reflexivity.
Qed.

Theorem remove_other b : is_entry b = false -> is_string b = false -> remove_block b = Val b.
Proof. destruct b; simpl; try discriminate; reflexivity. Qed.

Theorem set_meta_frame h k v : sl (set_meta h k v) = sl h /\ raw (set_meta h k v) = raw h
  /\ dict_get (meta (set_meta h k v)) k = Some v
  /\ (forall k', k' <> k -> dict_get (meta (set_meta h k v)) k' = dict_get (meta h) k').
Proof.
  unfold set_meta. simpl. repeat split; [apply dict_get_set_same | intros k' Hk; apply dict_get_set_other, Hk].
Qed.

Theorem remove_fields_str_total fs : Forall (fun f => is_vstr (fval f) = true) fs -> forall md0, exists r, remove_fields fs md0 = Val r.
Proof.
  induction 1 as [|f r Hf _ IH]; intros md0; simpl; [eexists; reflexivity|].
  destruct (fval f); try discriminate. simpl. destruct (strip_enclosing s) as [w e].
  destruct (IH (dict_set md0 (fkey f) (VStr e))) as [[r' md'] E]. rewrite E. eexists. reflexivity.
Qed.

Lemma map_res_Forall2 {T U} (f : T -> res U) l : forall l', map_res f l = Val l' -> Forall2 (fun x y => f x = Val y) l l'.
Proof.
  induction l as [|x l IH]; intros l' H; simpl in H.
  - inversion H. constructor.
  - destruct (f x) eqn:E; try discriminate. destruct (map_res f l) eqn:E2; try discriminate.
    inversion H; subst. constructor; [exact E | apply IH; reflexivity].
Qed.

(* BlockMiddleware.transform with a block function that keeps class and key: on the blocks of a library it is the
   block-wise map, Library(blocks=...) re-wraps nothing *)
Lemma block_mw_wf f bs :
  (forall b b', f b = Val b' -> ekey b' = ekey b /\ skey b' = skey b) -> wf_blocks bs -> block_mw f bs = map_res f bs.
Proof.
  intros K W. unfold block_mw. destruct (map_res f bs) as [l| |] eqn:E; try reflexivity.
  rewrite (rebuild_id l (wf_Forall2 _ bs l K (map_res_Forall2 _ _ _ E) W)). reflexivity.
Qed.

Lemma block_mw_blockwise f bs bs' :
  (forall b b', f b = Val b' -> ekey b' = ekey b /\ skey b' = skey b) ->
  wf_blocks bs -> block_mw f bs = Val bs' -> Forall2 (fun b b' => f b = Val b') bs bs'.
Proof. intros K W H. rewrite (block_mw_wf f bs K W) in H. exact (map_res_Forall2 _ _ _ H). Qed.

Lemma remove_block_keys b b' : remove_block b = Val b' -> ekey b' = ekey b /\ skey b' = skey b.
Proof.
  destruct b; simpl; intros H; try (inversion H; subst; split; reflexivity).
  - destruct (remove_fields fields []) as [[fs' md]| |]; try discriminate. inversion H; subst. split; reflexivity.
  - destruct (strip_value v) as [[s e]| |]; try discriminate. inversion H; subst. split; reflexivity.
Qed.

Theorem remove_lib_blockwise bs bs' : wf_blocks bs -> remove_lib bs = Val bs' ->
  Forall2 (fun b b' => remove_block b = Val b') bs bs'.
Proof. apply block_mw_blockwise, remove_block_keys. Qed.

Lemma add_block_keys c b b' : add_block_encl c b = Val b' -> ekey b' = ekey b /\ skey b' = skey b.
Proof.
  destruct b; simpl; intros H; try (inversion H; subst; split; reflexivity).
  - destruct (add_fields c _ fields); try discriminate. inversion H; subst. split; reflexivity.
  - destruct (enclose c v _ _); try discriminate. inversion H; subst. split; reflexivity.
Qed.

Theorem add_lib_blockwise c bs bs' : wf_blocks bs -> add_lib c bs = Val bs' ->
  Forall2 (fun b b' => add_block_encl c b = Val b') bs bs'.
Proof. apply block_mw_blockwise, add_block_keys. Qed.

Lemma add_fields_frame c md fs : forall fs', add_fields c md fs = Val fs' ->
  map fkey fs' = map fkey fs /\ map fline fs' = map fline fs
  /\ Forall2 (fun f f' => exists prev, md_lookup md (fkey f) = Val prev
                          /\ enclose c (fval f) prev (mem_str (fkey f) entry_potentially_int_fields) = Val (fval f')) fs fs'.
Proof.
  induction fs as [|f r IH]; intros fs' H; cbn [add_fields] in H.
  - inversion H. repeat split; constructor.
  - destruct (md_lookup md (fkey f)) as [prev| |] eqn:E1; try discriminate.
    destruct (enclose c (fval f) prev _) as [v'| |] eqn:E2; try discriminate.
    destruct (add_fields c md r) as [r'| |] eqn:E3; try discriminate.
    inversion H; subst. destruct (IH _ eq_refl) as (K1 & K2 & F). cbn [map fkey fline]. rewrite K1, K2.
    repeat split. constructor; [|exact F]. exists prev. split; [exact E1 | exact E2].
Qed.

Theorem add_entry_frame c h t k fs b' : add_block_encl c (BEntry h t k fs) = Val b' ->
  exists fs', b' = BEntry (del_meta h remove_enclosing_metadata_key) t k fs'
    /\ map fkey fs' = map fkey fs /\ map fline fs' = map fline fs.
Proof.
  simpl. destruct (add_fields c _ fs) as [fs'| |] eqn:E; try discriminate.
  intros H. inversion H; subst. destruct (add_fields_frame _ _ _ _ E) as (K1 & K2 & _).
  exists fs'. repeat split; assumption.
Qed.

Lemma last_field_nodup fs f : NoDup (map fkey fs) -> In f fs -> last_field (fkey f) fs = Some f.
Proof.
  induction fs as [|g r IH]; intros Hn Hi; [contradiction|].
  unfold last_field. simpl. rewrite find_app. simpl in Hn. inversion Hn as [|x l Hnot Hnd]; subst.
  destruct Hi as [->|Hi].
  - assert (E : find (fun f0 => str_eqb (fkey f) (fkey f0)) (rev r) = None).
    { destruct (find _ (rev r)) eqn:E; [|reflexivity]. exfalso. apply find_some in E. destruct E as [E1 E2].
      apply str_eqb_eq in E2. apply Hnot. rewrite E2. apply in_map. apply in_rev. exact E1. }
    rewrite E. simpl. rewrite str_eqb_refl. reflexivity.
  - fold (last_field (fkey f) r). rewrite (IH Hnd Hi). reflexivity.
Qed.

Theorem entry_reuse_restores c h t k fs b1 : reuse c = true -> NoDup (map fkey fs) ->
  remove_block (BEntry h t k fs) = Val b1 ->
  exists h', add_block_encl c b1 = Val (BEntry h' t k (map (fun f => mkfield (fkey f) (VStr (strip (str_of (fval f)))) (fline f)) fs))
             /\ sl h' = sl h /\ raw h' = raw h.
Proof.
  intros Hr Hn H. destruct (remove_entry_spec _ _ _ _ _ H) as (fs' & md & -> & F & K1 & K2 & G).
  cbn [add_block_encl]. destruct (set_meta_frame h remove_enclosing_metadata_key (VDict md)) as (S1 & S2 & S3 & _).
  rewrite S3.
  assert (A : add_fields c (Some (VDict md)) fs' = Val (map (fun f => mkfield (fkey f) (VStr (strip (str_of (fval f)))) (fline f)) fs)).
  { assert (Hsub : forall f, In f fs -> dict_get md (fkey f) = Some (recorded f)).
    { intros f Hf. rewrite G. rewrite (last_field_nodup fs f Hn Hf). reflexivity. }
    clear G K1 K2 H Hn. induction F as [|f f' r r' (s & Ev & ->) _ IH]; [reflexivity|].
    cbn [add_fields map fkey fval fline md_lookup not_none]. rewrite (Hsub f (or_introl eq_refl)). unfold recorded. rewrite Ev. cbn [str_of].
    rewrite (reuse_restores_strip c s _ Hr). rewrite IH; [reflexivity|]. intros g Hg. apply Hsub. right. exact Hg. }
  rewrite A. eexists. split; [reflexivity|]. split; assumption.
Qed.

Theorem numeric_fields_ok :
  entry_potentially_int_fields = map lit ["year"; "month"; "volume"; "number"; "pages"; "edition"; "chapter"; "issue"]%string
  /\ strings_can_be_unescaped_ints = false
  /\ remove_enclosing_metadata_key = lit "removed_enclosing" /\ removed_enclosing_key = lit "removed_enclosing".
Proof. repeat split; reflexivity. Qed.

(* C14, list level outside the known class K3: if no word of any name is 'and', merging the parts of every person,
   joining with " and ", separating and splitting again returns the same persons.
   A good name word (C13: atoms) scans cleanly as co-author text (C12: marks); the merged text of a person is a list of
   such words; the co-author walk over names given as word lists cuts exactly between the names. *)
From Coq Require Import List NArith ZArith Bool Lia PeanoNat.
From BP Require Import Base.Chars Gen.Constants Model.Names Spec.C12 Spec.C13 Spec.C14 Proofs.WriterProofs
  Proofs.NamesExactProofs Proofs.NamesIdemProofs Proofs.NamesTokProofs Proofs.NamesRoundTripProofs.
Import ListNotations.

Lemma ws_split_parse c : ws_split c = true -> ws_parse c = true.
Proof.
  unfold ws_split, ws_parse, in_set, names_ws_split, names_ws_parse. cbn [existsb]. rewrite !orb_false_r.
  intros H. repeat (apply orb_true_iff in H; destruct H as [H|H]); apply N.eqb_eq in H; subst c; vm_compute; reflexivity.
Qed.

Lemma wm_app a b : wm (a ++ b) = wm a ++ wm b.
Proof. apply map_app. Qed.

Lemma not_ws_parse_split c : ws_parse c = false -> ws_split c = false.
Proof. intros H. destruct (ws_split c) eqn:E; [|reflexivity]. rewrite (ws_split_parse c E) in H. discriminate. Qed.

Definition run := (bool * str)%type.
Definition and_w : str := [asc 97; asc 110; asc 100].

Lemma and_sep_eq : and_sep = sp1 ++ and_w ++ sp1.
Proof. reflexivity. Qed.
Lemma and_w_is_and : is_and_word and_w = true.
Proof. vm_compute. reflexivity. Qed.

Definition texts_ne (l : list run) : Prop := Forall (fun x : run => snd x <> []) l.
Definition ftext (l : list run) : str := concat (map snd l).
Definition seg (x : run) : list mk := map (fun c => (c, fst x)) (snd x).
Definition flat (l : list run) : list mk := concat (map seg l).

Definition hdpol (l : list run) : option bool := match l with [] => None | (b, _) :: _ => Some b end.
Fixpoint altr (l : list run) : Prop :=
  match l with
  | [] => True
  | (b, _) :: r => hdpol r <> Some b /\ altr r
  end.

(* an alternating list of non-empty runs is the run list of its marked text *)
Lemma runs_flat l : altr l -> texts_ne l -> runs (flat l) = l.
Proof.
  induction l as [|[[|] w] r IH]; intros Ha Hn; [reflexivity| |]; cbn [altr] in Ha; destruct Ha as [Hh Ha];
    inversion Hn as [|? ? Hw Hn']; subst; cbn [snd] in Hw.
  - change (flat ((true, w) :: r)) with (gm w ++ flat r). rewrite runs_gm; [rewrite IH by assumption; reflexivity | exact Hw |].
    rewrite IH by assumption. destruct r as [|[[|] t] tl]; [exact I | apply Hh; reflexivity | exact I].
  - change (flat ((false, w) :: r)) with (wm w ++ flat r). rewrite runs_wm by exact Hw. rewrite IH by assumption.
    unfold wapp. destruct r as [|[[|] t] tl]; try reflexivity. exfalso. apply Hh. reflexivity.
Qed.

(* scanning t from depth d reaches depth d' with no pending escape and gives every character of t the mark b, whatever
   follows *)
Definition clean (b : bool) (d d' : N) (t : str) : Prop :=
  forall rest, marks_go (t ++ rest) d = map (fun c => (c, b)) t ++ marks_go rest d'
               /\ balanced_go (t ++ rest) d = balanced_go rest d'.
Definition item_ok (x : run) : Prop := clean (fst x) 0 0 (snd x).

Lemma clean_nil b d : clean b d d [].
Proof. intros rest. split; reflexivity. Qed.

Lemma clean_app b d d' d'' x y : clean b d d' x -> clean b d' d'' y -> clean b d d'' (x ++ y).
Proof.
  intros Ha Hb rest. rewrite <- app_assoc. destruct (Ha (y ++ rest)) as [A1 A2]. destruct (Hb rest) as [B1 B2].
  rewrite A1, A2, B1, B2, map_app, <- app_assoc. split; reflexivity.
Qed.

Lemma and_item_ok : item_ok (false, and_w) /\ item_ok (true, sp1).
Proof. split; intros rest; split; reflexivity. Qed.

(* run lists that scan cleanly run by run are the marks of their text, and the text is balanced *)
Lemma items_consistent L : Forall item_ok L -> marks_go (ftext L) 0 = flat L /\ balanced_go (ftext L) 0 = true.
Proof.
  induction 1 as [|x r Hx _ [I1 I2]]; [split; reflexivity|].
  change (ftext (x :: r)) with (snd x ++ ftext r). change (flat (x :: r)) with (seg x ++ flat r).
  destruct (Hx (ftext r)) as [E1 E2]. rewrite E1, E2, I1, I2. split; reflexivity.
Qed.

Lemma clean_pair d c : clean false d d [c_bs; c].
Proof. intros rest. cbn [app marks_go balanced_go]. replace (ceq c_bs c_bs) with true by reflexivity. split; reflexivity. Qed.

(* one character that the atom scanner accepts at depth d *)
Lemma clean_char d c : ceq c c_bs = false -> is_sep ws_parse d (AChar c) = false ->
  negb (is_open (AChar c)) && is_close (AChar c) && (d =? 0)%N = false -> clean false d (dupd d (AChar c)) [c].
Proof.
  intros Ebs Esep Ecl rest. unfold dupd, is_sep in *. cbn [is_open is_close app map marks_go balanced_go] in *. rewrite Ebs.
  destruct (ceq c c_lb); [split; reflexivity|]. destruct (ceq c c_rb); cbn [negb andb] in *.
  - rewrite Ecl. split; reflexivity.
  - destruct (d =? 0)%N; [|split; reflexivity]. cbn [andb] in *. rewrite (not_ws_parse_split c Esep). split; reflexivity.
Qed.

(* a lone backslash (inside braces) is followed by a whitespace character, which it escapes for the co-author scanner *)
Lemma clean_bs_cons d d' e t : ws_parse e = true -> clean false d d' (e :: t) -> clean false d d' (c_bs :: e :: t).
Proof.
  intros He H rest. destruct (ws_parse_facts e He) as (E1 & E2 & E3 & _). destruct (H rest) as [H1 H2].
  cbn [app map marks_go balanced_go] in *. rewrite E1, E2, E3 in H1, H2.
  replace (ceq c_bs c_bs) with true by reflexivity. injection H1 as _ H1. rewrite H1, H2. split; reflexivity.
Qed.

Lemma scan_clean w : wfa w -> lone_bs_end w = false -> forall d d', scan ws_parse w d = Some d' -> clean false d d' (text w).
Proof.
  induction w as [|a w IH]; intros Hw Hp d d' Hs; cbn [scan] in Hs.
  - injection Hs as <-. apply clean_nil.
  - destruct (is_sep ws_parse d a) eqn:Esep; [discriminate|].
    destruct (negb (is_open a) && is_close a && (d =? 0)%N) eqn:Ecl; [discriminate|].
    assert (Hpw : lone_bs_end w = false) by (destruct w; [reflexivity | exact Hp]).
    rewrite text_cons. destruct a as [c|c].
    + destruct Hw as [_ Hw]. exact (clean_app _ _ _ _ _ _ (clean_pair d c) (IH Hw Hpw _ _ Hs)).
    + destruct Hw as [Hbs Hw]. specialize (IH Hw Hpw _ _ Hs). destruct (ceq c c_bs) eqn:Ebs.
      * apply N.eqb_eq in Ebs. subst c. specialize (Hbs eq_refl).
        destruct w as [|[e|e] w'']; [cbv in Hp; discriminate | contradiction |].
        rewrite text_cons in *. exact (clean_bs_cons _ _ _ _ Hbs IH).
      * exact (clean_app _ _ _ _ _ _ (clean_char d c Ebs Esep Ecl) IH).
Qed.

Lemma nosep0_not_ws c : is_sep ws_parse 0 (AChar c) = false -> ws_split c = false.
Proof.
  destruct special_facts as (Wb & Wl & Wr).
  unfold is_sep. cbn [is_open is_close].
  destruct (ceq c c_lb) eqn:E1; [apply N.eqb_eq in E1; subst c; intros _; exact Wl|].
  destruct (ceq c c_rb) eqn:E2; [apply N.eqb_eq in E2; subst c; intros _; exact Wr|].
  cbn. intros H. apply not_ws_parse_split. exact H.
Qed.

(* what a good name word looks like to the co-author splitter *)
Record cotext_ok (t : str) : Prop := mkct {
  ct_ne : t <> [];
  ct_item : item_ok (false, t);
  ct_hd : ws_split (hdc t) = false;
  ct_last : ws_split (lastc t) = false
}.

Lemma good_cotext w : good w -> lone_bs_end w = false -> cotext_ok (text w).
Proof.
  intros Hg Hp. destruct special_facts as (Wb & Wl & Wr).
  constructor.
  - apply text_ne. apply (gd_ne _ Hg).
  - exact (scan_clean w (gd_wfa _ Hg) Hp 0%N 0%N (gd_ws _ Hg)).
  - destruct w as [|a w']; [exfalso; apply (gd_ne _ Hg); reflexivity|].
    rewrite text_cons. destruct a as [c|c]; cbn [atom_text app hdc hd]; [exact Wb|].
    pose proof (gd_ws _ Hg) as Hs. cbn [scan] in Hs. destruct (is_sep ws_parse 0 (AChar c)) eqn:E; [discriminate|].
    apply nosep0_not_ws. exact E.
  - destruct (exists_last (gd_ne _ Hg)) as (w0 & a & ->).
    rewrite text_app. unfold text at 2. cbn [map concat]. rewrite app_nil_r.
    pose proof (gd_ws _ Hg) as Hs. rewrite scan_snoc in Hs.
    destruct (scan ws_parse w0 0) as [d|] eqn:E0; [|discriminate].
    destruct (is_sep ws_parse d a) eqn:Esep; [discriminate|].
    destruct (negb (is_open a) && is_close a && (d =? 0)%N) eqn:Ecl; [discriminate|].
    inversion Hs as [Hd].
    pose proof (wfa_app_r _ _ (gd_wfa _ Hg)) as Hwa.
    unfold lone_bs_end in Hp. rewrite last_last in Hp.
    destruct a as [c|c]; cbn [atom_text].
    + rewrite lastc_app by discriminate. cbn. apply not_ws_parse_split. apply Hwa.
    + rewrite lastc_app by discriminate. cbn [lastc last].
      unfold dupd in Hd. cbn [is_open is_close] in Hd, Esep.
      destruct (ceq c c_lb) eqn:E1; [lia|].
      destruct (ceq c c_rb) eqn:E2; [apply N.eqb_eq in E2; subst c; exact Wr|].
      subst d. apply nosep0_not_ws. unfold is_sep. cbn [is_open is_close]. rewrite E1, E2.
      unfold is_sep in Esep. cbn [is_open is_close] in Esep. rewrite E1, E2 in Esep. exact Esep.
Qed.

Lemma comma_cotext t : cotext_ok t -> cotext_ok (t ++ [c_comma]).
Proof.
  intros [Hne Hit Hh Hl]. constructor.
  - destruct t; discriminate.
  - exact (clean_app false 0 0 0 t [c_comma] Hit (clean_char 0 c_comma eq_refl eq_refl eq_refl)).
  - rewrite hdc_app by exact Hne. exact Hh.
  - rewrite lastc_app by discriminate. vm_compute. reflexivity.
Qed.

Definition tailruns (ws : list str) : list run := flat_map (fun w => [(true, sp1); (false, w)]) ws.
Definition wr (ws : list str) : list run := match ws with [] => [] | w :: r => (false, w) :: tailruns r end.

Lemma ftext_tailruns ws : ftext (tailruns ws) = concat (map (fun w => sp1 ++ w) ws).
Proof. induction ws as [|w r IH]; [reflexivity|]. unfold ftext in *. cbn [tailruns flat_map app map concat snd]. fold (tailruns r). rewrite IH. rewrite <- app_assoc. reflexivity. Qed.

Lemma join_sp ws : forall w, join sp1 (w :: ws) = w ++ concat (map (fun x => sp1 ++ x) ws).
Proof.
  induction ws as [|x r IH]; intros w; [cbn; rewrite app_nil_r; reflexivity|].
  change (join sp1 (w :: x :: r)) with (w ++ sp1 ++ join sp1 (x :: r)). rewrite IH. cbn [map concat]. rewrite <- !app_assoc. reflexivity.
Qed.

Lemma ftext_wr ws : ftext (wr ws) = join sp1 ws.
Proof.
  destruct ws as [|w r]; [reflexivity|]. cbn [wr]. change (ftext ((false, w) :: tailruns r)) with (w ++ ftext (tailruns r)).
  rewrite ftext_tailruns, join_sp. reflexivity.
Qed.

Lemma tail_andfree ws : Forall (fun w => is_and_word w = false) ws -> forall cur T, cur <> [] ->
  ref_walk (tailruns ws ++ T) cur [] = ref_walk T (cur ++ concat (map (fun w => sp1 ++ w) ws)) [].
Proof.
  intros HF. induction HF as [|w r Hw HF IH]; intros cur T Hc.
  - cbn. rewrite app_nil_r. reflexivity.
  - cbn [tailruns flat_map app]. fold (tailruns r). cbn [ref_walk]. rewrite Hw. cbn [andb].
    rewrite (nonempty_true cur Hc). rewrite IH by (destruct cur; [contradiction | discriminate]).
    cbn [map concat]. rewrite <- !app_assoc. reflexivity.
Qed.

Definition joined_words (WS : list (list str)) : list str :=
  match WS with [] => [] | ws :: r => ws ++ flat_map (fun x => and_w :: x) r end.

Lemma wr_app_and ws rest : ws <> [] -> wr (ws ++ and_w :: rest) = wr ws ++ (true, sp1) :: (false, and_w) :: tailruns rest.
Proof.
  destruct ws as [|w r]; [contradiction|]. intros _. cbn [wr app]. f_equal.
  unfold tailruns. rewrite flat_map_app. reflexivity.
Qed.

Lemma walk_names WS : Forall (fun ws => ws <> [] /\ Forall (fun w => w <> [] /\ is_and_word w = false) ws) WS ->
  ref_walk (wr (joined_words WS)) [] [] = map (join sp1) WS.
Proof.
  induction WS as [|ws WS IH]; intros HF; [reflexivity|].
  inversion HF as [|? ? [Hne Hws] HF']; subst.
  destruct ws as [|w0 r]; [contradiction|]. inversion Hws as [|? ? [Hw0 Ha0] Hr]; subst.
  assert (Hrand : Forall (fun w => is_and_word w = false) r) by (eapply Forall_impl; [|exact Hr]; intros x [_ H]; exact H).
  destruct WS as [|ws2 WS'].
  - cbn [joined_words flat_map map]. rewrite app_nil_r. cbn [wr ref_walk nonempty andb]. rewrite andb_false_r.
    rewrite <- (app_nil_r (tailruns r)). rewrite (tail_andfree r Hrand w0 [] Hw0). cbn [ref_walk].
    rewrite nonempty_app_l by exact Hw0. rewrite join_sp. reflexivity.
  - specialize (IH HF'). inversion HF' as [|? ? [Hne2 _] _]; subst.
    change (joined_words ((w0 :: r) :: ws2 :: WS')) with ((w0 :: r) ++ and_w :: joined_words (ws2 :: WS')).
    rewrite wr_app_and by discriminate. cbn [wr app ref_walk nonempty andb]. rewrite andb_false_r.
    rewrite (tail_andfree r Hrand w0 _ Hw0). cbn [ref_walk]. rewrite and_w_is_and.
    rewrite (nonempty_app_l w0 _ Hw0).
    destruct ws2 as [|v0 r2]; [contradiction|].
    assert (Hhw : has_word (tailruns (joined_words ((v0 :: r2) :: WS'))) = true) by reflexivity.
    rewrite Hhw. cbn [andb map]. rewrite join_sp. f_equal.
    cbn [joined_words app tailruns flat_map ref_walk]. fold (tailruns (r2 ++ flat_map (fun x => and_w :: x) WS')).
    cbn [nonempty andb]. rewrite andb_false_r.
    cbn [joined_words wr app ref_walk nonempty andb] in IH. rewrite andb_false_r in IH. exact IH.
Qed.

Definition commalast (ws : list str) : list str := removelast ws ++ [last ws [] ++ [c_comma]].
Fixpoint wtexts (Lay : list (list (list atom))) : list str :=
  match Lay with
  | [] => []
  | sec :: rest => match rest with [] => map text sec | _ => commalast (map text sec) ++ wtexts rest end
  end.

Lemma commalast_cons w w2 r : commalast (w :: w2 :: r) = w :: commalast (w2 :: r).
Proof. reflexivity. Qed.

Lemma join_commalast ws : ws <> [] -> join sp1 (commalast ws) = join sp1 ws ++ [c_comma] /\ commalast ws <> [].
Proof.
  induction ws as [|w ws IH]; intros Hne; [contradiction|].
  destruct ws as [|w2 r]; [split; [reflexivity | discriminate]|].
  destruct (IH ltac:(discriminate)) as [I1 I2].
  rewrite commalast_cons. split; [|discriminate].
  rewrite (join_cons_ne sp1 w _ I2), I1. change (join sp1 (w :: w2 :: r)) with (w ++ sp1 ++ join sp1 (w2 :: r)).
  rewrite <- !app_assoc. reflexivity.
Qed.

Lemma render_words Lay : Lay <> [] -> Forall (fun sec : list (list atom) => sec <> []) Lay ->
  render_lay Lay = join sp1 (wtexts Lay) /\ wtexts Lay <> [].
Proof.
  induction Lay as [|sec Lay IH]; intros Hne HF; [contradiction|].
  inversion HF as [|? ? Hs HF']; subst.
  destruct Lay as [|s2 r].
  - unfold render_lay. cbn [map join wtexts]. split; [reflexivity | apply map_ne; exact Hs].
  - destruct (IH ltac:(discriminate) HF') as [I1 I2].
    destruct (join_commalast (map text sec) (map_ne _ _ Hs)) as [J1 J2].
    assert (Ew : wtexts (sec :: s2 :: r) = commalast (map text sec) ++ wtexts (s2 :: r)) by reflexivity.
    rewrite Ew. split; [|intros E; apply app_eq_nil in E; destruct E; contradiction].
    unfold render_lay in *. cbn [map]. rewrite join_cons2. cbn [map] in I1. rewrite I1.
    rewrite (join_app sp1 _ _ J2 I2), J1. unfold sec_text, comma_sp, sp1. rewrite <- !app_assoc. reflexivity.
Qed.

Definition wgood (t : str) : Prop := cotext_ok t /\ is_and_word t = false.

Lemma comma_not_and t : is_and_word (t ++ [c_comma]) = false.
Proof. destruct t as [|a [|n [|d t']]]; try reflexivity. cbn. replace (is_dD c_comma) with false by reflexivity. rewrite !andb_false_r. reflexivity. destruct t'; reflexivity. Qed.

Lemma commalast_good ws : ws <> [] -> Forall wgood ws -> Forall wgood (commalast ws).
Proof.
  induction ws as [|w ws IH]; intros Hne HF; [contradiction|]. inversion HF as [|? ? [Hw _] HF']; subst.
  destruct ws as [|w2 r].
  - cbn. constructor; [|constructor]. split; [apply comma_cotext; exact Hw | apply comma_not_and].
  - rewrite commalast_cons. constructor; [inversion HF; assumption | apply IH; [discriminate | exact HF']].
Qed.

Lemma wtexts_good Lay : Forall (fun sec : list (list atom) => sec <> [] /\ Forall (fun w => wgood (text w)) sec) Lay ->
  Forall wgood (wtexts Lay).
Proof.
  induction Lay as [|sec Lay IH]; intros HF; [constructor|]. inversion HF as [|? ? [Hne Hs] HF']; subst.
  assert (Hm : Forall wgood (map text sec)) by (apply Forall_map; exact Hs).
  destruct Lay as [|s2 r]; [exact Hm|].
  assert (Ew : wtexts (sec :: s2 :: r) = commalast (map text sec) ++ wtexts (s2 :: r)) by reflexivity.
  rewrite Ew. apply Forall_app. split; [apply commalast_good; [apply map_ne; exact Hne | exact Hm] | apply IH; exact HF'].
Qed.

Lemma joined_words_cons2 ws ws2 WS : joined_words (ws :: ws2 :: WS) = ws ++ and_w :: joined_words (ws2 :: WS).
Proof. reflexivity. Qed.

Lemma join_names WS : Forall (fun ws : list str => ws <> []) WS ->
  join and_sep (map (join sp1) WS) = join sp1 (joined_words WS) /\ (WS <> [] -> joined_words WS <> []).
Proof.
  induction WS as [|ws WS IH]; intros HF; [split; [reflexivity | intros H; contradiction]|].
  inversion HF as [|? ? Hne HF']; subst. destruct (IH HF') as [I1 I2].
  destruct WS as [|ws2 WS'].
  - cbn [map join joined_words flat_map]. rewrite app_nil_r. split; [reflexivity | intros _; exact Hne].
  - rewrite joined_words_cons2. split; [|intros _ E; apply app_eq_nil in E; destruct E; contradiction].
    cbn [map]. rewrite join_cons2. cbn [map] in I1. rewrite I1.
    rewrite (join_app sp1 ws (and_w :: joined_words (ws2 :: WS')) Hne ltac:(discriminate)).
    rewrite (join_cons_ne sp1 and_w _ (I2 ltac:(discriminate))).
    rewrite and_sep_eq. unfold sp1. rewrite <- !app_assoc. reflexivity.
Qed.

Lemma and_cotext : cotext_ok and_w.
Proof. constructor; [discriminate | apply and_item_ok | vm_compute; reflexivity | vm_compute; reflexivity]. Qed.

Lemma wr_props ws : Forall cotext_ok ws -> Forall item_ok (wr ws) /\ altr (wr ws) /\ texts_ne (wr ws).
Proof.
  destruct and_item_ok as [_ Hsp].
  intros HF. destruct ws as [|w r]; [split; [constructor|]; split; [exact I | constructor]|]. inversion HF as [|? ? Hw Hr]; subst.
  assert (HT : Forall item_ok (tailruns r) /\ altr (tailruns r) /\ texts_ne (tailruns r) /\ hdpol (tailruns r) <> Some false).
  { clear - Hr Hsp. induction Hr as [|x r Hx Hr (I1 & I2 & I3 & I4)].
    - split; [constructor|]. split; [exact I|]. split; [constructor|]. cbn. discriminate.
    - cbn [tailruns flat_map app]. fold (tailruns r).
      split; [constructor; [exact Hsp|]; constructor; [apply (ct_item _ Hx) | exact I1]|].
      split; [cbn [altr hdpol]; split; [discriminate|]; split; [exact I4 | exact I2]|].
      split; [constructor; [discriminate|]; constructor; [apply (ct_ne _ Hx) | exact I3]|].
      cbn. discriminate. }
  destruct HT as (T1 & T2 & T3 & T4). cbn [wr].
  split; [constructor; [apply (ct_item _ Hw) | exact T1]|].
  split; [cbn [altr]; split; [exact T4 | exact T2]|].
  constructor; [apply (ct_ne _ Hw) | exact T3].
Qed.

Lemma Forall_hd_last {A} (P : A -> Prop) l d : l <> [] -> Forall P l -> P (hd d l) /\ P (last l d).
Proof.
  intros Hne HF. induction HF as [|x l Hx HF IH]; [contradiction|]. split; [exact Hx|].
  destruct l as [|y l']; [exact Hx|]. apply IH. discriminate.
Qed.

Lemma split_words_join WS : WS <> [] -> Forall (fun ws => ws <> [] /\ Forall wgood ws) WS ->
  split_names (join and_sep (map (join sp1) WS)) = map (join sp1) WS.
Proof.
  intros HWne HF.
  assert (HFne : Forall (fun ws : list str => ws <> []) WS) by (eapply Forall_impl; [|exact HF]; intros ws [H _]; exact H).
  destruct (join_names WS HFne) as [Ej Hane]. specialize (Hane HWne).
  set (AW := joined_words WS) in *.
  assert (HAW : Forall cotext_ok AW).
  { unfold AW. clear - HF. induction HF as [|ws WS [_ Hws] HF IH]; [constructor|].
    assert (Hc : Forall cotext_ok ws) by (eapply Forall_impl; [|exact Hws]; intros t [H _]; exact H).
    destruct WS as [|ws2 WS']; [cbn [joined_words flat_map]; rewrite app_nil_r; exact Hc|].
    rewrite joined_words_cons2. apply Forall_app. split; [exact Hc|]. constructor; [apply and_cotext | exact IH]. }
  destruct (wr_props AW HAW) as (Hitems & Haltr & Htne).
  destruct (items_consistent _ Hitems) as [Hm Hb]. rewrite ftext_wr in Hm, Hb.
  set (t' := join sp1 AW) in *.
  assert (HAWne : Forall (fun p : str => p <> []) AW) by (eapply Forall_impl; [|exact HAW]; intros t H; apply (ct_ne _ H)).
  destruct (join_ends sp1 AW Hane HAWne) as (Hjne & Hh & Hl). fold t' in Hjne, Hh, Hl.
  destruct (Forall_hd_last cotext_ok AW [] Hane HAW) as [Hhd Hla].
  assert (Estrip : strip4 t' = t').
  { apply strip_id; [exact Hjne | rewrite Hh; apply (ct_hd _ Hhd) | rewrite Hl; apply (ct_last _ Hla)]. }
  rewrite Ej. fold t'.
  rewrite (split_exact t') by (rewrite Estrip; exact Hb).
  unfold ref_split. rewrite Estrip. unfold marks. rewrite Hm.
  rewrite (runs_flat _ Haltr Htne).
  unfold AW. apply walk_names.
  eapply Forall_impl; [|exact HF]. intros ws [Hne Hws]. split; [exact Hne|].
  eapply Forall_impl; [|exact Hws]. intros t [Hc Hna]. split; [apply (ct_ne _ Hc) | exact Hna].
Qed.

Lemma map_eq_exists {A B C} (f : A -> C) (g : B -> C) l : forall l', map f l = map g l' -> Forall (fun y => exists x, f x = g y) l'.
Proof.
  induction l as [|x l IH]; intros [|y l'] H; try discriminate; [constructor|].
  cbn in H. inversion H. constructor; [exists x; assumption | apply IH; assumption].
Qed.

Lemma Forall_ex_map {A B C} (f : A -> C) (g : B -> C) (Q : B -> Prop) l :
  Forall (fun a => exists b, f a = g b /\ Q b) l -> exists l', map f l = map g l' /\ Forall Q l'.
Proof.
  induction 1 as [|a l (b & E & Hb) _ (l' & IE & IQ)]; [exists []; split; constructor|].
  exists (b :: l'). cbn [map]. rewrite E, IE. split; [reflexivity | constructor; assumption].
Qed.

(* the merged text of one valid, admissible name without a word 'and', as a list of words for the co-author scanner *)
Lemma merge_words s p : spec_parse s = Some p -> admissible p -> Forall (fun t => is_and_word t = false) (all_words p) ->
  exists ws, merge1 p = join sp1 ws /\ ws <> [] /\ Forall wgood ws.
Proof.
  intros Hs Ha Hq.
  destruct (valid_name_layout s p _ Hs Ha Hq) as (_ & _ & _ & Lay & Hne & Hok & _ & Er & HQ).
  assert (Hsne : Forall (fun sec : list (list atom) => sec <> []) Lay) by (eapply Forall_impl; [|exact Hok]; intros sec [H _]; exact H).
  destruct (render_words Lay Hne Hsne) as [Erw Hwne].
  exists (wtexts Lay). rewrite Er. split; [exact Erw|]. split; [exact Hwne|]. apply wtexts_good.
  eapply Forall_impl; [|exact (Forall_and Hok HQ)]. intros sec [(Hn & Hg & _) Hq']. split; [exact Hn|].
  eapply Forall_impl; [|exact (Forall_and Hg Hq')]. intros w [Hw [Hna Hpe]]. split; [apply good_cotext; assumption | exact Hna].
Qed.

Theorem list_inverse_except_known v ps : persons_of v = map POk ps -> Forall admissible ps ->
  known_C14_K3_b ps = false -> persons_of (merge_names (map merge1 ps)) = map POk ps.
Proof.
  intros Hv Hadm Hk.
  destruct ps as [|p0 ps0]; [reflexivity|].
  set (ps := p0 :: ps0) in *.
  pose proof (map_eq_exists split1 (@POk parts) (split_names v) ps Hv) as Hsrc.
  rewrite Forall_forall in Hadm, Hsrc.
  assert (HP : Forall (fun p => exists ws, merge1 p = join sp1 ws /\ ws <> [] /\ Forall wgood ws) ps).
  { apply Forall_forall. intros p Hp. destruct (Hsrc p Hp) as [s Hs].
    apply (merge_words s p (proj2 (tok_partition s p) Hs) (Hadm p Hp)).
    apply Forall_forall. intros t Ht. destruct (is_and_word t) eqn:E; [|reflexivity].
    unfold known_C14_K3_b in Hk. rewrite <- Hk. symmetry.
    apply existsb_exists. exists p. split; [exact Hp|]. apply existsb_exists. exists t. auto. }
  destruct (Forall_ex_map _ _ _ _ HP) as (WS & E & HF).
  assert (HWne : WS <> []) by (intros ->; discriminate E).
  unfold persons_of, merge_names. rewrite E, (split_words_join WS HWne HF), <- E, map_map.
  apply map_ext_in. intros p Hp. destruct (Hsrc p Hp) as [s Hs]. exact (person_inverse s p Hs (Hadm p Hp)).
Qed.

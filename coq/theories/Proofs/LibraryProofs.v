(* Proofs for C08: the representation invariant of Library holds after every history; order; raise-atomicity. *)
From Coq Require Import List NArith ZArith Bool Permutation.
From BP Require Import Base.Chars Model.Blocks Model.Entry Model.Library Spec.C08 Proofs.Common.
Import ListNotations.

(* list.index and list.remove stop at the same place: the first item == x, if there is one *)
Lemma first_match x l :
  (list_index x l = None /\ list_remove x l = None)
  \/ exists pre y post, l = pre ++ y :: post /\ ob_py_eq y x = true /\ Forall (fun z => ob_py_eq z x = false) pre
                        /\ list_index x l = Some (length pre) /\ list_remove x l = Some (pre ++ post).
Proof.
  induction l as [|y r IH]; simpl; [auto|]. destruct (ob_py_eq y x) eqn:E.
  - right. exists [], y, r. auto.
  - destruct IH as [[-> ->]|(pre & z & post & -> & Hz & Hpre & -> & ->)]; [auto|].
    right. exists (y :: pre), z, post. auto.
Qed.

Lemma list_index_none x l : list_index x l = None -> list_remove x l = None.
Proof. intros H. destruct (first_match x l) as [[_ E]|(pre & y & post & _ & _ & _ & E & _)]; congruence. Qed.

Lemma list_insert_app pre x post : list_insert (length pre) x (pre ++ post) = pre ++ x :: post.
Proof. induction pre; simpl; [destruct post; reflexivity | rewrite IHpre; reflexivity]. Qed.

Lemma list_insert_split i x l : exists pre post, l = pre ++ post /\ list_insert i x l = pre ++ x :: post.
Proof.
  revert l. induction i as [|j IH]; intros l; simpl.
  - exists [], l. split; reflexivity.
  - destruct l as [|y r].
    + exists [], []. split; reflexivity.
    + destruct (IH r) as (pre & post & H1 & H2). exists (y :: pre), post. simpl. rewrite H2, <- H1. split; reflexivity.
Qed.

Lemma failed_flags i a : is_failed_class a = true ->
  is_entry_ob (OB i a) = false /\ is_string_ob (OB i a) = false /\ is_preamble_ob (OB i a) = false
  /\ is_comment_ob (OB i a) = false.
Proof. destruct a; try discriminate; repeat split. Qed.

Lemma py_eq_class y x : ob_py_eq y x = true ->
  is_entry_ob y = is_entry_ob x /\ is_string_ob y = is_string_ob x /\ is_preamble_ob y = is_preamble_ob x
  /\ is_comment_ob y = is_comment_ob x /\ is_failed_ob y = is_failed_ob x
  /\ ((is_entry_ob x || is_string_ob x) = true -> okey y = okey x).
Proof.
  destruct y as [i a|i h k p d], x as [j b|j h' k' p' d']; try discriminate.
  - unfold ob_py_eq. destruct (is_failed_class a && is_failed_class b) eqn:F.
    + (* two failed blocks are in the same views whatever their classes *)
      apply andb_true_iff in F as [F1 F2]. intros _.
      destruct (failed_flags i a F1) as (A1 & A2 & A3 & A4), (failed_flags j b F2) as (B1 & B2 & B3 & B4).
      rewrite A1, A2, A3, A4, B1, B2, B3, B4. simpl. rewrite F1, F2. repeat split. discriminate.
    + (* otherwise Block.__eq__ holds only within one of the five other classes, and compares the keys *)
      intros H. destruct a; try discriminate H; destruct b; try discriminate H; simpl; repeat split; try discriminate;
        intros _; repeat (apply andb_true_iff in H as [H ?]); apply str_eqb_eq; assumption.
  - intros _. repeat split. discriminate.
Qed.

Lemma ob_eq_class a b : ob_eq a b ->
  is_entry_ob a = is_entry_ob b /\ is_string_ob a = is_string_ob b /\ is_preamble_ob a = is_preamble_ob b
  /\ is_comment_ob a = is_comment_ob b /\ is_failed_ob a = is_failed_ob b.
Proof. intros [->|H]; [repeat split | destruct (py_eq_class a b H) as (? & ? & ? & ? & ? & _); auto]. Qed.

Lemma entry_not_string b : is_entry_ob b = true -> is_string_ob b = false.
Proof. destruct b as [i x|]; simpl; [destruct x; simpl; auto; discriminate | discriminate]. Qed.

Definition keyed (bs : list oblock) : list (str * oblock) := map (fun b => (okey b, b)) bs.

(* the index d holds, under their keys, exactly the blocks of class p in bl, and these have distinct keys *)
Definition held (p : oblock -> bool) (d : list (str * oblock)) (bl : list oblock) : Prop :=
  Permutation d (keyed (filter p bl)) /\ NoDup (map okey (filter p bl)).

Definition Rep (l : lib) : Prop := held is_entry_ob (ents l) (blocks l) /\ held is_string_ob (strs l) (blocks l).

Lemma keyed_values hs : map snd (keyed hs) = hs.
Proof. unfold keyed. rewrite map_map. simpl. apply map_id. Qed.

Lemma keyed_app a b : keyed (a ++ b) = keyed a ++ keyed b.
Proof. unfold keyed. apply map_app. Qed.

Lemma in_keyed k x bs : In (k, x) (keyed bs) <-> In x bs /\ okey x = k.
Proof.
  unfold keyed. rewrite in_map_iff. split.
  - intros [y [E Hy]]. inversion E; subst. auto.
  - intros [H <-]. exists x. auto.
Qed.

Lemma rep_empty n : Rep (empty_lib n).
Proof. split; split; constructor. Qed.

Lemma held_maps p d bl : held p d bl -> maps_exactly d (filter p bl).
Proof.
  intros [P N].
  assert (Nd : NoDup (map fst d)).
  { eapply Permutation_NoDup; [apply Permutation_sym, Permutation_map, P|]. unfold keyed. rewrite map_map. exact N. }
  split; [assumption|]. intros k b. rewrite <- in_keyed. split.
  - intros G. apply dict_get_in in G. eapply Permutation_in; eassumption.
  - intros Hin. apply dict_get_In; [assumption|]. eapply Permutation_in; [apply Permutation_sym|]; eassumption.
Qed.

Lemma filter_insert_in (p : oblock -> bool) pre x post : p x = true -> filter p (pre ++ x :: post) = filter p pre ++ x :: filter p post.
Proof. intros H. rewrite !filter_app. simpl. rewrite H. reflexivity. Qed.

Lemma held_skip p d pre x post : p x = false -> held p d (pre ++ x :: post) <-> held p d (pre ++ post).
Proof. intros H. unfold held. rewrite !filter_app. simpl. rewrite H. reflexivity. Qed.

Lemma held_insert p d pre post b : held p d (pre ++ post) -> p b = true -> dict_get d (okey b) = None ->
  held p (dict_set d (okey b) b) (pre ++ b :: post).
Proof.
  intros H Hb Hg. destruct (held_maps _ _ _ H) as [_ M]. destruct H as [HP HN].
  apply dict_get_none in Hg. rewrite dict_set_new by assumption.
  unfold held. rewrite (filter_insert_in p pre b post Hb). rewrite filter_app in HP, HN, M.
  split.
  - rewrite keyed_app. simpl. rewrite keyed_app in HP.
    eapply Permutation_trans; [apply Permutation_app_comm|]. simpl. apply Permutation_cons_app. exact HP.
  - rewrite map_app. simpl. rewrite map_app in HN. apply NoDup_Add with (1 := Add_app _ _ _). split; [assumption|].
    (* a block with the key of b among those held would be found under it *)
    rewrite <- map_app. intros Hin. apply in_map_iff in Hin as [z [Hk Hz]].
    apply Hg. apply in_map_iff. exists (okey b, z). split; [reflexivity|].
    apply dict_get_in, M. auto.
Qed.

Lemma held_remove p d pre y post : held p d (pre ++ y :: post) -> p y = true ->
  dict_get d (okey y) = Some y /\ NoDup (map fst d) /\ held p (dict_del d (okey y)) (pre ++ post).
Proof.
  intros H Hy. destruct (held_maps _ _ _ H) as [Nd M]. destruct H as [HP HN].
  assert (G : dict_get d (okey y) = Some y).
  { apply M. split; [|reflexivity]. apply filter_In. split; [apply in_elt | assumption]. }
  split; [assumption|]. split; [assumption|].
  rewrite (filter_insert_in p pre y post Hy) in HP, HN. unfold held. rewrite filter_app.
  rewrite keyed_app in *. simpl in HP. split.
  - apply (Permutation_cons_inv (a := (okey y, y))).
    eapply Permutation_trans; [apply Permutation_sym, dict_del_perm, G|].
    eapply Permutation_trans; [exact HP|]. apply Permutation_sym, Permutation_middle.
  - rewrite map_app in *. simpl in HN. apply NoDup_remove_1 in HN. assumption.
Qed.

(* the only ways a call ends *)
Definition ok_out (o : outcome) : Prop := o = Done \/ o = Raised EValue.

(* every wrapper in the list was made by this library earlier: its identity is below the allocation counter *)
Definition Fresh (l : lib) : Prop := Forall (arg_wf l) (blocks l).

Lemma arg_wf_next l1 l2 z : (next l1 <= next l2)%N -> arg_wf l1 z -> arg_wf l2 z.
Proof. destruct z; simpl; auto. intros H1 H2. apply (N.lt_le_trans _ _ _ H2 H1). Qed.

Lemma Forall_arg_wf_next l1 l2 bl : (next l1 <= next l2)%N -> Forall (arg_wf l1) bl -> Forall (arg_wf l2) bl.
Proof. intros N. apply Forall_impl. intros z. apply arg_wf_next, N. Qed.

Definition is_wrapper_of (l : lib) (w b : oblock) : Prop :=
  exists i pb di db, b = OB di db /\ w = ODup (next l) (mkhdr (sl (bhdr db)) (raw (bhdr db)) []) (okey b) (i, pb) (di, db).

(* the two assertions of _cast_to_duplicate hold for a block found in the index of b's class under b's key *)
Lemma cast_ok l p prev b : p = is_entry_ob \/ p = is_string_ob -> p prev = true -> p b = true ->
  okey prev = okey b -> exists w, cast_to_duplicate l prev b = Some w /\ is_wrapper_of l w b.
Proof.
  intros Hp H1 H2 Hk. destruct prev as [i pb|], b as [di db|]; try (destruct Hp; subst p; discriminate).
  eexists. split; [|exists i, pb, di, db; split; reflexivity]. unfold cast_to_duplicate. rewrite Hk, str_eqb_refl.
  destruct Hp; subst p; simpl in H1, H2; rewrite H1, H2; simpl; rewrite ?orb_true_r; reflexivity.
Qed.

Lemma wrapper_other l w b : is_wrapper_of l w b -> is_entry_ob w = false /\ is_string_ob w = false.
Proof. intros (i & pb & di & db & _ & ->). split; reflexivity. Qed.

(* what goes into the list for b, and what that does to the counter *)
Definition added_as (l l' : lib) (b b' : oblock) : Prop :=
  (b' = b /\ next l' = next l) \/ (is_wrapper_of l b' b /\ l' = bump l).

Lemma added_next l l' b b' : added_as l l' b b' -> (next l <= next l')%N.
Proof. intros [[_ ->]|[_ ->]]; [apply N.le_refl | apply N.le_succ_diag_r]. Qed.

Lemma added_placed l l' b b' : added_as l l' b b' -> placed b' b.
Proof.
  intros [[-> _]|[(i & pb & di & db & E1 & E2) _]]; [left; reflexivity|].
  right. exists (next l), (mkhdr (sl (bhdr db)) (raw (bhdr db)) []), (i, pb), di, db. auto.
Qed.

Lemma fresh_after_add l l' b b' pre post : added_as l l' b b' ->
  Forall (arg_wf l) (pre ++ post) -> arg_wf l b -> Fresh (set_blocks l' (pre ++ b' :: post)).
Proof.
  intros Hc HF Hb. pose proof (added_next _ _ _ _ Hc) as N. unfold Fresh. simpl.
  apply (Forall_arg_wf_next l l' _ N) in HF. apply Forall_app in HF as [F1 F2].
  apply Forall_app. split; [assumption|]. constructor; [|assumption].
  destruct Hc as [[-> _]|[(i & pb & di & db & _ & ->) ->]]; [apply (arg_wf_next l); assumption | apply N.lt_succ_diag_r].
Qed.

(* what _add_to_dicts returns in a library satisfying Rep: never an AssertionError; b' is what goes into the list *)
Inductive added (l : lib) (b : oblock) (pre post : list oblock) : (lib * oblock) + exn -> Prop :=
| added_intro l' b' :
    blocks l' = blocks l -> Rep (set_blocks l' (pre ++ b' :: post)) -> added_as l l' b b' ->
    added l b pre post (inl (l', b')).

Lemma add_to_dicts_rep l b pre post : blocks l = pre ++ post -> Rep l -> added l b pre post (add_to_dicts l b).
Proof.
  intros Hbl [RE RS]. rewrite Hbl in RE, RS.
  (* a key that is taken in the index of b's class: the cast succeeds, and the wrapper shows in neither index *)
  assert (taken : forall p d prev, p = is_entry_ob \/ p = is_string_ob -> p b = true ->
            held p d (pre ++ post) -> dict_get d (okey b) = Some prev ->
            exists w, cast_to_duplicate l prev b = Some w /\ Rep (set_blocks (bump l) (pre ++ w :: post))
                      /\ added_as l (bump l) b w).
  { intros p d prev Hp Hb H G. apply (held_maps _ _ _ H) in G as [Hin Hk]. apply filter_In in Hin as [_ Hprev].
    destruct (cast_ok l p prev b Hp Hprev Hb Hk) as (w & E & W). exists w. split; [exact E|].
    destruct (wrapper_other _ _ _ W). split; [split; apply held_skip; assumption | right; auto]. }
  unfold add_to_dicts. destruct (is_entry_ob b) eqn:Eb; [|destruct (is_string_ob b) eqn:Sb].
  - destruct (dict_get (ents l) (okey b)) as [prev|] eqn:G.
    + destruct (taken _ _ _ (or_introl eq_refl) Eb RE G) as (w & -> & R & A). constructor; auto.
    + constructor; [reflexivity | | left; auto].
      split; [apply held_insert | apply held_skip; [apply entry_not_string|]]; assumption.
  - destruct (dict_get (strs l) (okey b)) as [prev|] eqn:G.
    + destruct (taken _ _ _ (or_intror eq_refl) Sb RS G) as (w & -> & R & A). constructor; auto.
    + constructor; [reflexivity | | left; auto].
      split; [apply held_skip | apply held_insert]; assumption.
  - constructor; [reflexivity | | left; auto]. split; apply held_skip; assumption.
Qed.

(* the indexes of l' are those of l without the key of b in the index of b's class *)
Definition unindexed (l l' : lib) (b : oblock) : Prop :=
  ents l' = (if is_entry_ob b then dict_del (ents l) (okey b) else ents l)
  /\ strs l' = (if is_entry_ob b then strs l else if is_string_ob b then dict_del (strs l) (okey b) else strs l).

(* one turn of remove's loop: no block == b, or the first of them leaves the list and its index *)
Inductive removed_one (l : lib) (b : oblock) : lib * outcome -> Prop :=
| removed_none : list_remove b (blocks l) = None -> removed_one l b (l, Raised EValue)
| removed_first l' :
    Rep l' -> next l' = next l -> removes_first b (blocks l) (blocks l') -> list_remove b (blocks l) = Some (blocks l') ->
    unindexed l l' b -> removed_one l b (l', Done).

Lemma remove_one_rep l b : Rep l -> removed_one l b (remove_one l b).
Proof.
  intros [RE RS]. unfold remove_one.
  destruct (first_match b (blocks l)) as [[_ LR]|(pre & y & post & Hbl & Hy & Hpre & _ & LR)]; rewrite LR; [constructor; assumption|].
  destruct (py_eq_class _ _ Hy) as (C1 & C2 & _ & _ & _ & C3). rewrite Hbl in RE, RS.
  assert (RF : removes_first b (blocks l) (pre ++ post)) by (exists pre, y, post; auto).
  (* the block found has the class and key of b, so the key is in the index: no KeyError *)
  destruct (is_entry_ob b) eqn:Eb; [|destruct (is_string_ob b) eqn:Sb]; simpl.
  - destruct (held_remove _ _ _ _ _ RE C1) as (G & _ & H). rewrite (C3 eq_refl) in G, H. unfold dict_has. rewrite G.
    constructor; unfold unindexed; simpl; rewrite ?Eb; auto.
    split; [assumption | apply (held_skip _ _ pre y post); [apply entry_not_string|]; assumption].
  - destruct (held_remove _ _ _ _ _ RS C2) as (G & _ & H). rewrite (C3 eq_refl) in G, H. unfold dict_has. rewrite G.
    constructor; unfold unindexed; simpl; rewrite ?Eb, ?Sb; auto. split; [apply (held_skip _ _ pre y post) | ]; assumption.
  - constructor; unfold unindexed; simpl; rewrite ?Eb, ?Sb; auto. split; apply (held_skip _ _ pre y post); assumption.
Qed.

Lemma remove_loop_rep bs : forall l, Rep l -> validate_remove bs (blocks l) = true ->
  exists l', remove_loop l bs = (l', Done) /\ Rep l' /\ next l' = next l /\ removes_all bs (blocks l) (blocks l').
Proof.
  induction bs as [|b r IH]; intros l R V; simpl.
  - exists l. auto.
  - simpl in V. destruct (remove_one_rep l b R) as [LR|l1 R1 N1 RF LR _]; rewrite LR in V; [discriminate|].
    destruct (IH l1 R1 V) as (l2 & E2 & R2 & N2 & RA).
    exists l2. split; [assumption|]. split; [assumption|]. split; [congruence|]. exists (blocks l1); auto.
Qed.

Lemma removes_all_incl bs : forall bl bl', removes_all bs bl bl' -> incl bl' bl.
Proof.
  induction bs as [|b r IH]; simpl; intros bl bl' H.
  - subst. apply incl_refl.
  - destruct H as (mid & (pre & y & post & E1 & _ & _ & E2) & H2). apply IH in H2. subst.
    intros z Hz. apply H2 in Hz. apply in_app_or in Hz. apply in_or_app. destruct Hz; [left | right; right]; assumption.
Qed.

(* remove checks every argument against a copy of the list before it touches anything *)
Inductive removed (l : lib) (bs : list oblock) : lib * outcome -> Prop :=
| removed_refused : removed l bs (l, Raised EValue)
| removed_all l' :
    Rep l' -> next l' = next l -> (Fresh l -> Fresh l') -> removes_all bs (blocks l) (blocks l') -> removed l bs (l', Done).

Lemma remove_rep l bs : Rep l -> removed l bs (remove l bs).
Proof.
  intros R. unfold remove. destruct (validate_remove bs (blocks l)) eqn:V; [|constructor].
  destruct (remove_loop_rep bs l R V) as (l' & -> & R' & N & RA). constructor; try assumption.
  unfold Fresh. rewrite !Forall_forall. intros Fr z Hz.
  apply (arg_wf_next l); [rewrite N; apply N.le_refl | apply Fr, (removes_all_incl _ _ _ RA), Hz].
Qed.

(* remove(old), as replace calls it *)
Lemma remove_single l old : remove l [old] = remove_one l old.
Proof.
  unfold remove. cbn [validate_remove remove_loop].
  assert (H : list_remove old (blocks l) = None -> remove_one l old = (l, Raised EValue)) by (unfold remove_one; intros ->; reflexivity).
  destruct (list_remove old (blocks l)); [|symmetry; auto].
  destruct (remove_one l old) as [l1 [|e]]; reflexivity.
Qed.

(* add's loop never stops early: every block of bs is in the list, as itself or wrapped; `added` is the accumulator *)
Inductive add_looped (l : lib) (bs added : list oblock) : (lib * list oblock) + (lib * exn) -> Prop :=
| add_looped_intro l' added' :
    Rep l' -> blocks l' = blocks l ++ added' -> Forall2 placed added' bs -> (next l <= next l')%N ->
    (Fresh l -> Forall (arg_wf l) bs -> Fresh l') ->
    add_looped l bs added (inl (l', added ++ added')).

Lemma add_loop_rep bs : forall l added, Rep l -> add_looped l bs added (add_loop l bs added).
Proof.
  induction bs as [|b r IH]; intros l added R; simpl.
  - rewrite <- (app_nil_r added) at 2. constructor; auto using N.le_refl. rewrite app_nil_r. reflexivity.
  - destruct (add_to_dicts_rep l b (blocks l) [] (eq_sym (app_nil_r _)) R) as [l1 b' Hb R1 Hc].
    rewrite Hb. pose proof (added_next _ _ _ _ Hc) as N1.
    destruct (IH (set_blocks l1 (blocks l ++ [b'])) (added ++ [b']) R1) as [l2 added2 R2 B2 F2 N2 Fr2].
    rewrite <- app_assoc. apply (add_looped_intro l (b :: r) added l2 (b' :: added2)).
    + exact R2.
    + rewrite B2. simpl. rewrite <- app_assoc. reflexivity.
    + constructor; [eapply added_placed, Hc | exact F2].
    + exact (N.le_trans _ _ _ N1 N2).
    + intros Fr Ha. inversion Ha as [|? ? Hb' Hr]; subst. apply Fr2.
      * apply (fresh_after_add l l1 b b' (blocks l) []); auto. rewrite app_nil_r. exact Fr.
      * apply (Forall_arg_wf_next l); assumption.
Qed.

(* add never fails before the end: the blocks are in the list (as themselves or wrapped) also when it raises *)
Inductive add_outcome (l : lib) (bs : list oblock) (f : bool) : lib * outcome -> Prop :=
| add_outcome_intro l' o added :
    Rep l' -> ok_out o -> (f = false -> o = Done) -> (next l <= next l')%N ->
    (Fresh l -> Forall (arg_wf l) bs -> Fresh l') ->
    blocks l' = blocks l ++ added -> Forall2 placed added bs ->
    add_outcome l bs f (l', o).

Lemma add_rep l bs f : Rep l -> add_outcome l bs f (add l bs f).
Proof.
  intros R. unfold add. destruct (add_loop_rep bs l [] R) as [l' added R' B F N Fr]. simpl.
  assert (Out : forall o, ok_out o -> (f = false -> o = Done) -> add_outcome l bs f (l', o)).
  { intros o Ho Hf. apply (add_outcome_intro l bs f l' o added); assumption. }
  (* only the check of duplicate_keys at the end raises, and only with fail_on_duplicate_key *)
  destruct f; [destruct (duplicate_keys bs added)|]; apply Out; unfold ok_out; auto; discriminate.
Qed.

(* how replace_core ends: old is not in the list, or new (or its wrapper b') stands where the first block == old stood *)
Inductive core_outcome (l : lib) (old new : oblock) : (lib * oblock) + (lib * exn) -> Prop :=
| core_missing : core_outcome l old new (inr (l, EValue))
| core_put pre y post l1 l2 b' :
    blocks l = pre ++ y :: post -> ob_py_eq y old = true -> Forall (fun z => ob_py_eq z old = false) pre ->
    next l1 = next l -> unindexed l l1 old -> added_as l1 l2 new b' ->
    Rep (set_blocks l2 (pre ++ b' :: post)) ->
    (Fresh l -> arg_wf l new -> Fresh (set_blocks l2 (pre ++ b' :: post))) ->
    core_outcome l old new (inl (set_blocks l2 (pre ++ b' :: post), b')).

Lemma replace_core_spec l old new : Rep l -> core_outcome l old new (replace_core l old new).
Proof.
  intros R. unfold replace_core.
  destruct (first_match old (blocks l)) as [[-> _]|(pre & y & post & Hbl & Hy & Hpre & -> & LR)]; [constructor|].
  rewrite remove_single. destruct (remove_one_rep l old R) as [LR'|l1 R1 N1 _ LR' U]; [congruence|].
  assert (B1 : blocks l1 = pre ++ post) by congruence.
  destruct (add_to_dicts_rep l1 new pre post B1 R1) as [l2 b' B2 R2 Hc].
  rewrite B2, B1, list_insert_app. apply (core_put l old new pre y post l1); try assumption.
  intros Fr Hn. unfold Fresh in Fr. rewrite Hbl in Fr. apply Forall_app in Fr as [F1 F2]. inversion F2 as [|? ? _ F3]; subst.
  assert (N : (next l <= next l1)%N) by (rewrite N1; apply N.le_refl).
  apply (fresh_after_add l1 l2 new b' pre post Hc); [apply (Forall_arg_wf_next l), Forall_app; auto | apply (arg_wf_next l); auto].
Qed.

Lemma forall2_ob_eq_refl bl : Forall2 ob_eq bl bl.
Proof. induction bl; constructor; auto. left; reflexivity. Qed.
Lemma dict_equal_refl d : dict_equal d d.
Proof. intros k. destruct (dict_get d k); auto. left; reflexivity. Qed.
(* equality of the state: the block list and the two indexes; all eight views follow (core_lib_equal) *)
Definition core_equal (before after : lib) : Prop :=
  Forall2 ob_eq (blocks before) (blocks after)
  /\ dict_equal (ents before) (ents after) /\ dict_equal (strs before) (strs after).
Lemma core_equal_refl l : core_equal l l.
Proof. split; [apply forall2_ob_eq_refl | split; apply dict_equal_refl]. Qed.

Lemma filter_equal (p : oblock -> bool) bl bl' :
  (forall a b, ob_eq a b -> p a = p b) -> Forall2 ob_eq bl bl' -> Forall2 ob_eq (filter p bl) (filter p bl').
Proof.
  intros Hp H. induction H as [|x y l l' Hxy H IH]; simpl; [constructor|].
  rewrite (Hp x y Hxy). destruct (p y); [constructor|]; assumption.
Qed.

(* == respects the five class tests, so the filtered views of equal block lists are equal *)
Lemma core_lib_equal a b : core_equal a b -> lib_equal a b.
Proof.
  intros (HB & HE & HS). unfold lib_equal, list_equal, v_blocks, v_entries, v_entries_dict, v_strings, v_strings_dict,
    v_preambles, v_comments, v_failed.
  repeat split; try assumption; (apply filter_equal; [intros x y H; destruct (ob_eq_class x y H) as (? & ? & ? & ? & ?) | ]; assumption).
Qed.

(* taking a held block out of its index and entering the caller's block, which is == to it, under the same key:
   the key was free, and it now maps to the caller's block *)
Lemma held_readd p d pre y post old : held p d (pre ++ y :: post) -> p y = true ->
  ob_py_eq y old = true -> okey y = okey old ->
  dict_get (dict_del d (okey old)) (okey old) = None /\ dict_equal d (dict_set (dict_del d (okey old)) (okey old) old).
Proof.
  intros H Hp Hy Hk. destruct (held_remove _ _ _ _ _ H Hp) as (G & Nd & _). rewrite Hk in G.
  split; [apply dict_get_del_same, Nd|]. intros k'. destruct (str_eqb k' (okey old)) eqn:E.
  - apply str_eqb_eq in E. subst. rewrite G, dict_get_set_same. right. assumption.
  - apply str_eqb_neq in E. rewrite dict_get_set_other, dict_get_del_other by assumption.
    destruct (dict_get d k'); auto. left; reflexivity.
Qed.

Lemma find_fresh_wrapper l pre post h k p d :
  Forall (arg_wf l) pre ->
  let W := ODup (next l) h k p d in
  list_index W (pre ++ W :: post) = Some (length pre) /\ list_remove W (pre ++ W :: post) = Some (pre ++ post).
Proof.
  intros HF W. induction HF as [|z r Hz HF IH]; simpl.
  - rewrite N.eqb_refl. auto.
  - destruct IH as [I1 I2]. rewrite I1, I2.
    assert (E : ob_py_eq z W = false).
    { destruct z as [i x|i h' k' p' d']; simpl; auto. apply N.eqb_neq, N.lt_neq, Hz. }
    rewrite E. auto.
Qed.

(* replace(W, old) where W is the wrapper just put in the place of y (== old) and every wrapper before it is older:
   W is the block found, old goes into its place and into the index y was taken from *)
Lemma rollback_equal l old pre y post l1 h k p d :
  Rep l -> blocks l = pre ++ y :: post -> ob_py_eq y old = true ->
  Forall (arg_wf l1) pre -> unindexed l l1 old ->
  let W := ODup (next l1) h k p d in
  let l3 := set_blocks (bump l1) (pre ++ W :: post) in
  Rep l3 -> exists l5, replace_core l3 W old = inl (l5, old) /\ core_equal l l5.
Proof.
  intros [RE RS] Hbl Hy Fpre [He Hs] W l3 R3. rewrite Hbl in RE, RS.
  destruct (find_fresh_wrapper l1 pre post h k p d Fpre) as [FI FR]. fold W in FI, FR.
  unfold replace_core. rewrite remove_single. change (blocks l3) with (pre ++ W :: post). rewrite FI.
  destruct (remove_one_rep l3 W R3) as [LR|l4 _ _ _ LR [He4 Hs4]]; change (blocks l3) with (pre ++ W :: post) in LR; [congruence|].
  assert (B4 : blocks l4 = pre ++ post) by congruence. simpl in He4, Hs4.
  destruct (py_eq_class _ _ Hy) as (C1 & C2 & _ & _ & _ & C3).
  assert (HB : Forall2 ob_eq (blocks l) (pre ++ old :: post)).
  { rewrite Hbl. apply Forall2_app; [apply forall2_ob_eq_refl|]. constructor; [right; assumption | apply forall2_ob_eq_refl]. }
  unfold add_to_dicts, core_equal. destruct (is_entry_ob old) eqn:Eb; [|destruct (is_string_ob old) eqn:Sb].
  - destruct (held_readd _ _ _ _ _ old RE C1 Hy (C3 eq_refl)) as [G D].
    rewrite He4, He, G. eexists. split; [reflexivity|]. simpl. rewrite B4, list_insert_app, Hs4, Hs.
    auto using dict_equal_refl.
  - destruct (held_readd _ _ _ _ _ old RS C2 Hy (C3 eq_refl)) as [G D].
    rewrite Hs4, Hs, G. eexists. split; [reflexivity|]. simpl. rewrite B4, list_insert_app, He4, He.
    auto using dict_equal_refl.
  - eexists. split; [reflexivity|]. simpl. rewrite B4, list_insert_app, He4, He, Hs4, Hs.
    auto using dict_equal_refl.
Qed.

(* the three ways a call of replace ends: old is not there; new (or its wrapper x) stands where the first block == old
   stood; or the wrapper was refused and taken back.  What is taken back is exactly the wrapper only if the list
   holds no younger wrapper, which is why the last case asks for Fresh *)
Inductive replace_outcome (l : lib) (old new : oblock) : lib * outcome -> Prop :=
| replace_missing : replace_outcome l old new (l, Raised EValue)
| replace_placed pre y post x l' :
    blocks l = pre ++ y :: post -> ob_py_eq y old = true -> Forall (fun z => ob_py_eq z old = false) pre ->
    blocks l' = pre ++ x :: post -> placed x new ->
    Rep l' -> (next l <= next l')%N -> (Fresh l -> arg_wf l new -> Fresh l') ->
    replace_outcome l old new (l', Done)
| replace_rolled_back l' :
    Rep l' -> (next l <= next l')%N ->
    (Fresh l -> core_equal l l' /\ (arg_wf l old -> arg_wf l new -> Fresh l')) ->
    replace_outcome l old new (l', Raised EValue).

Lemma replace_cases l old new f : Rep l -> replace_outcome l old new (replace l old new f).
Proof.
  intros R. unfold replace.
  destruct (replace_core_spec l old new R) as [|pre y post l1 l2 b' Hbl Hy Hpre N1 U Hc R3 Fr3]; [constructor|].
  pose proof (added_next _ _ _ _ Hc) as N2.
  destruct (negb (oid_of new =? oid_of b')%N && is_dup_ob b' && f) eqn:C.
  2:{ apply (replace_placed l old new pre y post b'); auto; [eapply added_placed, Hc | simpl; rewrite <- N1; exact N2]. }
  (* only a wrapper is refused *)
  apply andb_true_iff in C as [C _]. apply andb_true_iff in C as [Co _].
  destruct Hc as [[-> _]|[(i & pb & di & db & _ & ->) ->]]; [rewrite N.eqb_refl in Co; discriminate|].
  set (W := ODup _ _ _ _ _) in *. set (l3 := set_blocks (bump l1) (pre ++ W :: post)) in *.
  assert (RB : Fresh l -> exists l5, replace_core l3 W old = inl (l5, old) /\ core_equal l l5).
  { intros Fr. apply (rollback_equal l old pre y post l1); auto.
    unfold Fresh in Fr. rewrite Hbl in Fr. apply Forall_app in Fr as [F1 _].
    apply (Forall_arg_wf_next l); [rewrite N1; apply N.le_refl | assumption]. }
  assert (N3 : (next l <= next l3)%N) by (simpl; rewrite N1; apply N.le_succ_diag_r).
  unfold replace_nofail. revert RB.
  destruct (replace_core_spec l3 W old R3) as [|pre' y' post' l1' l2' b'' _ _ _ N1' _ Hc' R' Fr']; intros RB.
  - apply replace_rolled_back; auto. intros Fr. destruct (RB Fr) as (l5 & E5 & _). discriminate E5.
  - apply added_next in Hc'.
    apply replace_rolled_back; [assumption | simpl; apply (N.le_trans _ _ _ N3); rewrite <- N1'; exact Hc' |].
    intros Fr. destruct (RB Fr) as (l5 & E5 & CE). injection E5 as <- _. split; [exact CE|].
    intros Ho Hn. apply Fr'; [auto | apply (arg_wf_next l); assumption].
Qed.

(* any call, with any arguments: Rep is kept and only ValueError is raised; well-formed arguments keep Fresh *)
Inductive applied (l : lib) (o : lop) : lib * outcome -> Prop :=
| applied_intro l' out :
    Rep l' -> ok_out out -> (next l <= next l')%N -> (Fresh l -> op_wf l o -> Fresh l') -> applied l o (l', out).

Lemma apply_ok l o : Rep l -> applied l o (apply l o).
Proof.
  intros R. destruct o as [bs f|bs|old new f]; simpl.
  - destruct (add_rep l bs f R) as [l' o added R' O _ N Fr _ _]. constructor; auto.
  - destruct (remove_rep l bs R) as [|l' R' N Fr _]; constructor; unfold ok_out; auto;
      [apply N.le_refl | rewrite N; apply N.le_refl].
  - destruct (replace_cases l old new f R) as [|pre y post x l' _ _ _ _ _ R' N Fr|l' R' N Fr];
      constructor; unfold ok_out; auto using N.le_refl; intros F [Ho Hn]; [auto | apply Fr; assumption].
Qed.

Lemma run_rep ops : forall l, Rep l -> Rep (fst (run ops l)) /\ Forall ok_out (snd (run ops l)).
Proof.
  induction ops as [|o r IH]; intros l R; simpl; auto.
  destruct (apply_ok l o R) as [l1 x R1 O1 _ _].
  destruct (IH l1 R1) as [R2 O2]. destruct (run r l1) as [l2 xs]. simpl in *. auto.
Qed.

Lemma reachable_ok l : reachable l -> Rep l /\ Fresh l.
Proof.
  induction 1 as [n|l o _ [R F] W]; [split; [apply rep_empty | constructor]|].
  destruct (apply_ok l o R) as [l' x R' _ _ F']. auto.
Qed.

Lemma partition5 bl :
  Permutation (filter is_entry_ob bl ++ filter is_string_ob bl ++ filter is_preamble_ob bl ++ filter is_comment_ob bl
               ++ filter is_failed_ob bl) bl.
Proof.
  induction bl as [|b r IH]; simpl; [constructor|].
  destruct b as [i x|i h k p d]; [destruct x|]; simpl;
    try (apply perm_skip; exact IH);
    apply Permutation_sym;
    repeat rewrite app_assoc;
    apply Permutation_cons_app; repeat rewrite <- app_assoc; apply Permutation_sym; exact IH.
Qed.

(* five clauses of Inv say that a view is a filter of the block list, which it is by definition, and the partition
   clause holds of every list: only the two maps_exactly and the two NoDup clauses depend on the history *)
Lemma rep_inv l : Rep l -> Inv l.
Proof.
  intros [RE RS]. unfold Inv, held_entries, held_strings, v_entries, v_entries_dict, v_strings_dict, v_strings,
    v_preambles, v_comments, v_failed, v_blocks.
  split; [reflexivity|]. split; [apply held_maps, RE|]. split; [apply held_maps, RS|].
  split; [apply RE|]. split; [apply RS|]. split; [reflexivity|]. split; [apply partition5 | auto].
Qed.

Lemma inv_reachable l : reachable l -> Inv l.
Proof. intros H. apply rep_inv, reachable_ok, H. Qed.

(* no validity condition at all is needed for the invariant, and nothing but ValueError is ever raised *)
Lemma inv_any_history ops n :
  Inv (fst (run ops (empty_lib n))) /\ Forall (fun o => o = Done \/ o = Raised EValue) (snd (run ops (empty_lib n))).
Proof. destruct (run_rep ops (empty_lib n) (rep_empty n)) as [R O]. split; [apply rep_inv; assumption | exact O]. Qed.

Lemma raise_atomic l o : reachable l -> ~ known_K1 o -> snd (apply l o) = Raised EValue -> lib_equal l (fst (apply l o)).
Proof.
  intros Hr HK. destruct (reachable_ok l Hr) as [R Fr]. intros H. apply core_lib_equal. revert H.
  destruct o as [bs f|bs|old new f]; simpl.
  - destruct f; [exfalso; apply HK; exists bs; reflexivity|].
    destruct (add_rep l bs false R) as [l' o added _ _ Hd _ _ _ _]. simpl. rewrite (Hd eq_refl). discriminate.
  - destruct (remove_rep l bs R) as [|l' _ _ _ _]; simpl; [intros _; apply core_equal_refl | discriminate].
  - destruct (replace_cases l old new f R) as [|pre y post x l' _ _ _ _ _ _ _ _|l' _ _ A]; simpl;
      [intros _; apply core_equal_refl | discriminate | intros _; apply A, Fr].
Qed.

(* strings: always the String blocks in block order, and a raising call (other than K1) keeps that order *)
Lemma strings_order l : reachable l ->
  v_strings l = filter is_string_ob (blocks l)
  /\ forall o, ~ known_K1 o -> snd (apply l o) = Raised EValue -> list_equal (v_strings l) (v_strings (fst (apply l o))).
Proof.
  intros Hr. split; [reflexivity|]. intros o HK H. destruct (raise_atomic l o Hr HK H) as (_ & _ & _ & HS & _). exact HS.
Qed.

Lemma order l : reachable l ->
  (forall bs f, exists added, blocks (fst (add l bs f)) = blocks l ++ added /\ Forall2 placed added bs)
  /\ (forall bs, snd (remove l bs) = Done -> removes_all bs (blocks l) (blocks (fst (remove l bs))))
  /\ (forall old new f, snd (replace l old new f) = Done ->
        exists pre y post x, blocks l = pre ++ y :: post /\ ob_py_eq y old = true
          /\ Forall (fun z => ob_py_eq z old = false) pre
          /\ blocks (fst (replace l old new f)) = pre ++ x :: post /\ placed x new).
Proof.
  intros Hr. destruct (reachable_ok l Hr) as [R _]. split; [|split].
  - intros bs f. destruct (add_rep l bs f R) as [l' o added _ _ _ _ _ B P]. exists added. auto.
  - intros bs. destruct (remove_rep l bs R) as [|l' _ _ _ RA]; simpl; [discriminate | auto].
  - intros old new f. destruct (replace_cases l old new f R) as [|pre y post x l' Hbl Hy Hpre B P _ _ _|l' _ _ _]; simpl;
      [discriminate | intros _; exists pre, y, post, x; auto | discriminate].
Qed.

From Coq Require Import String.
Definition w_e0 : oblock := OB 0 (BEntry hdr0 (lit "article"%string) (lit "a"%string) []).
Definition w_e1 : oblock := OB 1 (BEntry hdr0 (lit "book"%string) (lit "a"%string) []).
Definition w_lib1 : lib := fst (apply (empty_lib 1000) (LAdd [w_e0] false)).
Definition w_op1 : lop := LAdd [w_e1] true.

(* K1: add(dup, fail_on_duplicate_key=True) raises ValueError after appending the wrapper *)
Lemma atomic_refuted : exists l o, reachable l /\ op_wf l o /\ snd (apply l o) = Raised EValue /\ ~ lib_equal l (fst (apply l o)).
Proof.
  exists w_lib1, w_op1. split; [apply reach_step; [apply reach_empty|]; simpl; repeat constructor|]. split; [simpl; repeat constructor|].
  split; [vm_compute; reflexivity|]. intros [H _]. unfold list_equal in H. apply Forall2_length in H. vm_compute in H. discriminate.
Qed.

Definition w_s0 : oblock := OB 0 (BString hdr0 (lit "a"%string) (VStr (lit "1"%string))).
Definition w_s1 : oblock := OB 1 (BString hdr0 (lit "b"%string) (VStr (lit "2"%string))).
Definition w_s2 : oblock := OB 2 (BString hdr0 (lit "b"%string) (VStr (lit "3"%string))).
Definition w_lib2 : lib := fst (apply (empty_lib 1000) (LAdd [w_s0; w_s1] false)).
Definition w_op2 : lop := LReplace w_s0 w_s2 true.

(* a raising replace re-inserts the old string at the END of the string index; `strings` follows the block list, so it
   keeps its order (what would go wrong if `strings` were list(dict.values())) *)
Lemma example_strings_order :
  reachable w_lib2 /\ ~ known_K1 w_op2 /\ snd (apply w_lib2 w_op2) = Raised EValue
  /\ map fst (v_strings_dict (fst (apply w_lib2 w_op2))) = [lit "b"%string; lit "a"%string]
  /\ map oid_of (v_strings w_lib2) = [0; 1]%N /\ map oid_of (v_strings (fst (apply w_lib2 w_op2))) = [0; 1]%N.
Proof.
  set (r := apply w_lib2 w_op2). vm_compute in r. split; [|split; [|repeat split; reflexivity]].
  - apply reach_step; [apply reach_empty|]. simpl. repeat constructor.
  - intros [bs E]. discriminate E.
Qed.

(* non-vacuity of the atomicity theorem: a reachable library holding duplicates in which a raising replace of a
   structurally equal twin is rolled back *)
Definition w_e0twin : oblock := OB 7 (BEntry hdr0 (lit "article"%string) (lit "a"%string) []).
Definition w_e2 : oblock := OB 2 (BEntry hdr0 (lit "misc"%string) (lit "b"%string) []).
Definition w_lib3 : lib := fst (run [LAdd [w_e0; w_e1; w_e2] false] (empty_lib 1000)).
Definition w_op3 : lop := LReplace w_e0twin w_e2 true.
Lemma example_rollback :
  reachable w_lib3 /\ ~ known_K1 w_op3 /\ snd (apply w_lib3 w_op3) = Raised EValue
  /\ map oid_of (blocks w_lib3) = [0; 1000; 2]%N /\ map oid_of (blocks (fst (apply w_lib3 w_op3))) = [7; 1000; 2]%N.
Proof.
  set (r := apply w_lib3 w_op3). vm_compute in r. split; [|split; [|repeat split; reflexivity]].
  - change w_lib3 with (fst (apply (empty_lib 1000) (LAdd [w_e0; w_e1; w_e2] false))).
    apply reach_step; [apply reach_empty|]. simpl. repeat constructor.
  - intros [bs E]. discriminate E.
Qed.

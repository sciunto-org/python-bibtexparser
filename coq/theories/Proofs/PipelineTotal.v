(* C01: parse_string / write_string with the default stacks never raise (totality of the composed model).
   Invariant carried through the default parse stack: every block is "splitter-shaped" (good_block):
   field values and @string values are VStr and every block (also the blocks inside duplicate wrappers)
   has raw text. *)
From Coq Require Import List NArith ZArith Bool Lia String.
From BP Require Import Base.Chars Model.Blocks Model.LibAdd Model.Splitter Model.Enclosing Model.Interpolate
  Model.Writer Model.Pipeline Gen.Constants Spec.C06 Spec.C09 Proofs.Common Proofs.SplitTotal Proofs.DupProofs
  Proofs.WriterProofs.
Import ListNotations.

Definition has_raw (h : hdr) : bool := match raw h with Some _ => true | None => false end.
Definition good_field (f : field) : bool := is_vstr (fval f).
(* entry.parser_metadata["removed_enclosing"] is absent, None or a dict: AddEnclosing calls .get on it whatever
   reuse_previous_enclosing says (see [meta_needed] at the end of this file) *)
Definition meta_ok (h : hdr) : bool :=
  match dict_get (meta h) remove_enclosing_metadata_key with
  | None | Some VNone | Some (VDict _) => true
  | _ => false
  end.

Fixpoint good_blockb (b : block) : bool :=
  match b with
  | BEntry h _ _ fs => has_raw h && meta_ok h && forallb good_field fs
  | BString h _ v => has_raw h && is_vstr v
  | BPreamble h _ | BExpl h _ | BImpl h _ | BFailed h _ => has_raw h
  | BMwErr h _ i => has_raw h && good_blockb i
  | BDupKey h _ p d => has_raw h && good_blockb p && good_blockb d
  | BDupField h _ e => has_raw h && good_blockb e
  end.
Definition good_block (b : block) : Prop := good_blockb b = true.

Lemma good_entry h t k fs :
  good_block (BEntry h t k fs) <-> has_raw h = true /\ meta_ok h = true /\ forallb good_field fs = true.
Proof. unfold good_block. cbn [good_blockb]. rewrite !andb_true_iff. tauto. Qed.
Lemma good_string h k v : good_block (BString h k v) <-> has_raw h = true /\ is_vstr v = true.
Proof. unfold good_block. cbn [good_blockb]. apply andb_true_iff. Qed.

Lemma good_has_raw b : good_block b -> has_raw (bhdr b) = true.
Proof.
  unfold good_block. destruct b; cbn; intros H; repeat (apply andb_true_iff in H as [H ?]); assumption.
Qed.

Lemma has_raw_ex h : has_raw h = true -> exists r, raw h = Some r.
Proof. unfold has_raw. destruct (raw h); [eauto|discriminate]. Qed.

Lemma forallb_rv {A} (p : A -> bool) l : forallb p l = true -> forallb p (rv l) = true.
Proof.
  rewrite rv_rev, !forallb_forall. intros H x Hx. apply H. apply in_rev. exact Hx.
Qed.

Lemma hdr_of_raw o : has_raw (hdr_of o) = true.
Proof. reflexivity. Qed.

Lemma good_entry_block o : forallb good_field (flds_rev o) = true -> good_block (entry_block o).
Proof.
  intros H. unfold good_block, entry_block.
  destruct (dups o); cbn; rewrite forallb_rv; auto.
Qed.
Lemma good_braces_block k o : good_block (braces_block k o).
Proof. destruct k; reflexivity. Qed.
Lemma good_failed_block o r : good_block (failed_block o r).
Proof. reflexivity. Qed.

Lemma flds_ob_field o : forallb good_field (flds_rev o) = true -> forallb good_field (flds_rev (ob_field o)) = true.
Proof. intros H. cbn. exact H. Qed.

(* a completed field holds a str; every other update keeps the fields or starts with none *)
Lemma ob_upd_flds u c ln o :
  forallb good_field (flds_rev o) = true -> forallb good_field (flds_rev (ob_upd u c ln o)) = true.
Proof. intros H. destruct u; first [exact H | reflexivity]. Qed.

Theorem split_raw_good t bs : split_raw t = Blocks bs -> Forall good_block bs.
Proof.
  apply (split_raw_emits (fun o => forallb good_field (flds_rev o) = true) good_block).
  - reflexivity.
  - exact ob_upd_flds.
  - reflexivity.
  - exact good_failed_block.
  - exact good_braces_block.
  - exact good_entry_block.
Qed.

(* Library(blocks) keeps good blocks good.
   Library(blocks) is flag_all (Proofs/DupProofs.v): a later block of a key is wrapped together with the first block
   of that key, which is one of the blocks before it. *)
Lemma first_entry_In k bs b : first_entry k bs = Some b -> In b bs.
Proof.
  rewrite first_entry_by. intros H. destruct (first_by_some _ _ _ _ H) as (_ & pre & post & -> & _). apply in_elt.
Qed.
Lemma first_string_In k bs b : first_string k bs = Some b -> In b bs /\ is_string b = true.
Proof.
  rewrite first_string_by. intros H. destruct (first_by_some _ _ _ _ H) as (K & pre & post & -> & _).
  split; [apply in_elt | destruct b; try discriminate; reflexivity].
Qed.

Lemma rebuild_Forall (P : block -> Prop) :
  (forall pre b, Forall P pre -> P b -> P (flagged pre b)) -> forall bs, Forall P bs -> Forall P (rebuild bs).
Proof.
  intros HP bs. rewrite rebuild_flag_all. generalize (Forall_nil P). generalize (@nil block).
  induction bs as [|b r IH]; intros pre Hpre H; cbn [flag_all]; [constructor|]. inversion H as [|? ? Hb Hr]; subst.
  constructor; [apply HP; assumption|]. apply IH; [|exact Hr]. apply Forall_app. split; [exact Hpre | constructor; [exact Hb | constructor]].
Qed.

Lemma good_dup h k p b : has_raw h = true -> good_block p -> good_block b ->
  good_block (BDupKey (mkhdr (sl h) (raw h) []) k p b).
Proof. unfold good_block. cbn [good_blockb]. unfold has_raw. cbn [raw]. intros -> -> ->. reflexivity. Qed.

Lemma flagged_good pre b : Forall good_block pre -> good_block b -> good_block (flagged pre b).
Proof.
  intros Hpre G. pose proof (good_has_raw b G) as R. rewrite Forall_forall in Hpre.
  destruct b; try exact G; cbn [flagged].
  - destruct (first_entry key pre) as [p|] eqn:E; [|exact G].
    apply good_dup; [exact R | apply Hpre, (first_entry_In _ _ _ E) | exact G].
  - destruct (first_string key pre) as [p|] eqn:E; [|exact G].
    apply good_dup; [exact R | apply Hpre, (first_string_In _ _ _ E) | exact G].
Qed.

Lemma rebuild_good bs : Forall good_block bs -> Forall good_block (rebuild bs).
Proof. apply rebuild_Forall, flagged_good. Qed.

Lemma rebuild_length bs : List.length (rebuild bs) = List.length bs.
Proof. apply DupProofs.rebuild_length. Qed.

Theorem split_good t bs : split t = Blocks bs -> Forall good_block bs.
Proof.
  unfold split. destruct (split_raw t) as [bs0|] eqn:E; [|discriminate].
  intros H. injection H as <-. apply rebuild_good. eapply split_raw_good, E.
Qed.

(* the strings index holds the first @string block of each name *)
Lemma strs_good bs k sb : Forall good_block bs -> dict_get (strs (lib_of bs)) k = Some sb -> is_vstr (string_value sb) = true.
Proof.
  intros G H. rewrite strings_dict_first in H. rewrite Forall_forall in G.
  destruct (first_string_In _ _ _ H) as [I S]. specialize (G _ I). destruct sb; try discriminate.
  exact (proj2 (proj1 (good_string _ _ _) G)).
Qed.

(* the inner loop of the middleware is a map over the fields *)
Definition resolve_field (sd : list (str * block)) (f : field) : field :=
  if nonstring_or_enclosed (fval f) then f
  else match fval f with
       | VStr s => match dict_get sd s with None => f | Some sb => mkfield (fkey f) (string_value sb) (fline f) end
       | _ => f
       end.
Lemma resolve_fields_fst sd fs : fst (resolve_fields sd fs) = map (resolve_field sd) fs.
Proof.
  induction fs as [|f r IH]; [reflexivity|]. cbn [resolve_fields map]. unfold resolve_field at 1.
  destruct (resolve_fields sd r) as [r' ks]. cbn [fst] in IH. subst r'.
  destruct (nonstring_or_enclosed (fval f)); [reflexivity|].
  destruct (fval f); try reflexivity. destruct (dict_get sd s); reflexivity.
Qed.

Definition strs_ok (sd : list (str * block)) : Prop := forall k sb, dict_get sd k = Some sb -> is_vstr (string_value sb) = true.

Lemma resolve_field_good sd f : strs_ok sd -> good_field f = true -> good_field (resolve_field sd f) = true.
Proof.
  intros S G. unfold resolve_field. destruct (nonstring_or_enclosed (fval f)); [exact G|].
  destruct (fval f); try exact G. destruct (dict_get sd s) eqn:E; [exact (S _ _ E) | exact G].
Qed.

Lemma resolve_fields_good sd fs : strs_ok sd -> forallb good_field fs = true ->
  forallb good_field (fst (resolve_fields sd fs)) = true.
Proof.
  intros S H. rewrite resolve_fields_fst. rewrite forallb_forall in *. intros f' I.
  apply in_map_iff in I as (f & <- & I). apply resolve_field_good; [exact S | exact (H f I)].
Qed.

Lemma meta_ok_set_other h k v : str_eqb remove_enclosing_metadata_key k = false -> meta_ok (set_meta h k v) = meta_ok h.
Proof. intros E. unfold meta_ok, set_meta. cbn [meta]. rewrite dict_get_set, E. reflexivity. Qed.
Lemma meta_ok_set_dict h d : meta_ok (set_meta h remove_enclosing_metadata_key (VDict d)) = true.
Proof. unfold meta_ok, set_meta. cbn [meta]. rewrite dict_get_set_same. reflexivity. Qed.

Lemma resolve_block_good sd b : strs_ok sd -> good_block b -> good_block (resolve_block sd b).
Proof.
  intros S G. destruct b; try exact G. apply good_entry in G as (Gr & Gm & Gf). cbn [resolve_block].
  pose proof (resolve_fields_good sd fields S Gf) as H. destruct (resolve_fields sd fields) as [fs' ks]. cbn [fst] in H.
  destruct ks; apply good_entry; (split; [exact Gr | split; [|exact H]]); [exact Gm|].
  rewrite meta_ok_set_other; [exact Gm | reflexivity].
Qed.

Lemma resolve_lib_good bs : Forall good_block bs -> Forall good_block (resolve_lib bs).
Proof.
  intros G. unfold resolve_lib, resolve_on. apply Forall_map. eapply Forall_impl; [|exact (rebuild_good bs G)].
  intros b. apply resolve_block_good. intros k sb. apply strs_good, G.
Qed.

Lemma resolve_lib_length bs : List.length (resolve_lib bs) = List.length bs.
Proof. unfold resolve_lib, resolve_on. rewrite map_length. apply rebuild_length. Qed.

Lemma map_res_total {T U} (f : T -> Enclosing.res U) (P : T -> Prop) (Q : U -> Prop) l :
  (forall x, P x -> exists y, f x = Enclosing.Val y /\ Q y) -> Forall P l ->
  exists l', map_res f l = Enclosing.Val l' /\ Forall Q l' /\ List.length l' = List.length l.
Proof.
  intros F. induction 1 as [|x l Hx _ IH]; cbn; [exists []; auto|].
  destruct (F x Hx) as (y & -> & Hy). destruct IH as (l' & -> & Hl & Len).
  exists (y :: l'). cbn. auto.
Qed.

(* Q: what the middleware leaves of a good block; Library(blocks=...) then keeps it *)
Lemma block_mw_total f (Q : block -> Prop) bs :
  (forall pre b, Forall Q pre -> Q b -> Q (flagged pre b)) ->
  (forall b, good_block b -> exists b', f b = Enclosing.Val b' /\ Q b') -> Forall good_block bs ->
  exists bs', block_mw f bs = Enclosing.Val bs' /\ Forall Q bs' /\ List.length bs' = List.length bs.
Proof.
  intros HQ F G. destruct (map_res_total f good_block Q bs F G) as (l' & E & Hl & Len).
  unfold block_mw. rewrite E. exists (rebuild l'). split; [reflexivity|]. split; [apply rebuild_Forall; assumption|].
  rewrite rebuild_length. exact Len.
Qed.

Lemma remove_fields_total fs : forallb good_field fs = true -> forall md,
  exists fs' md', remove_fields fs md = Enclosing.Val (fs', md') /\ forallb good_field fs' = true.
Proof.
  induction fs as [|f r IH]; cbn; intros H md; [exists [], md; auto|].
  apply andb_true_iff in H as [Hf Hr]. unfold good_field in Hf.
  destruct (fval f) eqn:V; try discriminate. cbn.
  destruct (strip_enclosing s) as [s' e].
  destruct (IH Hr (dict_set md (fkey f) (VStr e))) as (r' & md' & -> & Hg).
  exists (mkfield (fkey f) (VStr s') (fline f) :: r'), md'. split; [reflexivity|]. cbn. exact Hg.
Qed.

Lemma remove_block_total b : good_block b -> exists b', remove_block b = Enclosing.Val b' /\ good_block b'.
Proof.
  intros G. destruct b; try (eexists; split; [reflexivity|exact G]).
  - apply good_entry in G as (Gr & _ & Gf). destruct (remove_fields_total fields Gf []) as (fs' & md' & E & Hg).
    cbn [remove_block]. rewrite E. eexists; split; [reflexivity|]. apply good_entry.
    split; [exact Gr | split; [apply meta_ok_set_dict | exact Hg]].
  - apply good_string in G as (Gr & Gv). destruct v; try discriminate. cbn [remove_block strip_value].
    destruct (strip_enclosing s) as [s' e]. eexists; split; [reflexivity|]. apply good_string. split; [exact Gr | reflexivity].
Qed.

Lemma remove_lib_total bs : Forall good_block bs ->
  exists bs', remove_lib bs = Enclosing.Val bs' /\ Forall good_block bs' /\ List.length bs' = List.length bs.
Proof. apply block_mw_total; [exact flagged_good | exact remove_block_total]. Qed.

Lemma default_stack_total bs : Forall good_block bs ->
  exists bs', default_stack bs = Enclosing.Val bs' /\ Forall good_block bs' /\ List.length bs' = List.length bs.
Proof.
  intros G. unfold default_stack.
  destruct (remove_lib_total _ (resolve_lib_good bs G)) as (bs' & E & H & L).
  exists bs'. rewrite resolve_lib_length in L. auto.
Qed.

Theorem parse_default_good t : exists bs, parse_default t = PVal bs /\ Forall good_block bs.
Proof.
  unfold parse_default. destruct (split_total t) as [bs0 E]. rewrite E.
  destruct (default_stack_total bs0 (split_good t bs0 E)) as (bs & -> & G & _). eauto.
Qed.

Theorem parse_default_total : forall t, exists bs, parse_default t = PVal bs.
Proof. intros t. destruct (parse_default_good t) as (bs & E & _). eauto. Qed.

(* what the writer needs of a block: raw text, and str values *)
Definition wgood (b : block) : bool :=
  has_raw (bhdr b) &&
  match b with BEntry _ _ _ fs => forallb good_field fs | BString _ _ v => is_vstr v | _ => true end.

Lemma good_wgood b : good_block b -> wgood b = true.
Proof.
  intros G. unfold wgood. rewrite (good_has_raw b G).
  destruct b; try reflexivity; [apply good_entry in G | apply good_string in G]; apply G.
Qed.

(* reuse_previous_enclosing is off and enclose_integers is on: every str or int gets the braces *)
Definition enc_value (v : value) : Enclosing.res value :=
  match fmt_value v with None => Enclosing.Skip | Some txt => Enclosing.Val (VStr (c_lb :: txt ++ [c_rb])) end.
Lemma enclose_default_add v md air : enclose default_add v md air = enc_value v.
Proof.
  unfold enclose, enc_value. destruct (fmt_value v) as [txt|]; [|reflexivity].
  cbn [reuse default_add enclose_integers negb andb default_enclosing]. rewrite andb_false_r.
  cbn [andb]. rewrite str_eqb_refl. reflexivity.
Qed.
Lemma enclose_default s md b : enclose default_add (VStr s) md b = Enclosing.Val (VStr (c_lb :: s ++ [c_rb])).
Proof. apply enclose_default_add. Qed.

Lemma md_lookup_ok h k : meta_ok h = true ->
  exists p, md_lookup (dict_get (meta h) remove_enclosing_metadata_key) k = Enclosing.Val p.
Proof.
  unfold meta_ok, md_lookup. destruct (dict_get (meta h) remove_enclosing_metadata_key) as [[]|]; cbn;
    intros H; try discriminate; eauto.
Qed.

Lemma add_fields_total md fs : (forall k, exists p, md_lookup md k = Enclosing.Val p) ->
  forallb good_field fs = true ->
  exists fs', add_fields default_add md fs = Enclosing.Val fs' /\ forallb good_field fs' = true.
Proof.
  intros M. induction fs as [|f r IH]; cbn [add_fields forallb]; intros H; [exists []; auto|].
  apply andb_true_iff in H as [Hf Hr]. destruct (IH Hr) as (r' & E & Hg).
  destruct (M (fkey f)) as [p ->]. unfold good_field in Hf. destruct (fval f); try discriminate.
  rewrite enclose_default, E. eexists; split; [reflexivity|]. cbn. exact Hg.
Qed.

Lemma add_block_encl_total b : good_block b ->
  exists b', add_block_encl default_add b = Enclosing.Val b' /\ wgood b' = true.
Proof.
  intros G. pose proof (good_wgood b G) as W.
  destruct b; try (eexists; split; [reflexivity|exact W]).
  - apply good_entry in G as (Gr & Gm & Gf).
    destruct (add_fields_total _ fields (fun k => md_lookup_ok h k Gm) Gf) as (fs' & E & Hg).
    cbn [add_block_encl]. rewrite E. eexists; split; [reflexivity|].
    unfold wgood. cbn [bhdr]. change (has_raw (del_meta h remove_enclosing_metadata_key)) with (has_raw h).
    rewrite Gr, Hg. reflexivity.
  - apply good_string in G as (Gr & Gv). destruct v; try discriminate.
    cbn [add_block_encl]. rewrite enclose_default. eexists; split; [reflexivity|].
    unfold wgood. cbn [bhdr]. rewrite Gr. reflexivity.
Qed.

(* a duplicate wrapper carries the raw text of the block it wraps *)
Lemma flagged_wgood pre b : Forall (fun x => wgood x = true) pre -> wgood b = true -> wgood (flagged pre b) = true.
Proof.
  intros _ W. assert (R : has_raw (bhdr b) = true) by (unfold wgood in W; apply andb_true_iff in W; apply W).
  destruct b; try exact W; cbn [flagged bhdr] in *; [destruct (first_entry key pre) | destruct (first_string key pre)];
    try exact W; unfold wgood; cbn [bhdr]; change (has_raw (mkhdr (sl h) (raw h) [])) with (has_raw h); rewrite R; reflexivity.
Qed.

Lemma add_lib_total bs : Forall good_block bs ->
  exists bs', add_lib default_add bs = Enclosing.Val bs' /\ Forall (fun x => wgood x = true) bs' /\
              List.length bs' = List.length bs.
Proof. apply block_mw_total; [exact flagged_wgood | exact add_block_encl_total]. Qed.

(* the writer: a library of wgood blocks is one the
   BibtexFormat contract speaks about (Spec/C06.v: writable), and the contract says the writer returns a text *)
Lemma good_str_fields fs : forallb good_field fs = true -> str_fields fs <> None.
Proof.
  induction fs as [|f r IH]; cbn [forallb str_fields]; intros H; [discriminate|]. apply andb_true_iff in H as [Hf Hr].
  unfold good_field in Hf. destruct (fval f); try discriminate. destruct (str_fields r); [discriminate | exact (IH Hr)].
Qed.

Lemma wgood_writable b : wgood b = true -> writable b.
Proof.
  unfold wgood. intros W. apply andb_true_iff in W as [R W]. apply has_raw_ex in R as [r R].
  destruct b; cbn [writable bhdr] in *; try exact I; try exact W; try (rewrite R; discriminate). apply good_str_fields, W.
Qed.

(* the failed-block comment template has {n} as its only replacement field *)
Definition template_ok (f : fmt) : Prop := forall n, exists s, expand (f_failed f) n = Some s.

Lemma write_total f bs : template_ok f -> Forall (fun x => wgood x = true) bs -> exists s, write f bs = Writer.Val s.
Proof.
  intros T W. destruct (write_structure f bs) as (out & E & _).
  - eapply Forall_impl; [|exact W]. exact wgood_writable.
  - intros _ n. destruct (T n) as [s E]. exists s. apply expand_sound, E.
  - exists out. exact E.
Qed.

Lemma default_template_ok : template_ok default_fmt.
Proof. intros n. vm_compute. eauto. Qed.

Theorem write_default_total : forall f bs, Forall good_block bs -> template_ok f -> exists s, write_default f bs = PVal s.
Proof.
  intros f bs G T. unfold write_default.
  destruct (add_lib_total bs G) as (bs' & -> & W & _).
  destruct (write_total f bs' T W) as [s ->]. eauto.
Qed.

Theorem parse_write_total : forall t, exists s, parse_write t = PVal s.
Proof.
  intros t. unfold parse_write. destruct (parse_default_good t) as (bs & -> & G).
  apply write_default_total; [exact G|exact default_template_ok].
Qed.

(* every block of a default-parsed library has its raw text *)
Theorem all_raw_carry : forall t bs, parse_default t = PVal bs -> Forall (fun b => exists r, raw (bhdr b) = Some r) bs.
Proof.
  intros t bs E. destruct (parse_default_good t) as (bs' & E' & G). rewrite E in E'. injection E' as <-.
  eapply Forall_impl; [|exact G]. intros b Gb. apply has_raw_ex, good_has_raw, Gb.
Qed.

(* in particular the failed ones *)
Theorem failed_carry : forall t bs, parse_default t = PVal bs ->
  Forall (fun b => is_failed_class b = true -> exists r, raw (bhdr b) = Some r) bs.
Proof. intros t bs E. eapply Forall_impl; [|exact (all_raw_carry t bs E)]. intros b H _. exact H. Qed.

(* the default stack neither drops nor adds a block *)
Theorem parse_default_length : forall t bs0 bs, split t = Blocks bs0 -> parse_default t = PVal bs ->
  List.length bs = List.length bs0.
Proof.
  intros t bs0 bs S. unfold parse_default. rewrite S.
  destruct (default_stack_total bs0 (split_good t bs0 S)) as (bs' & -> & _ & L).
  intros E. injection E as <-. exact L.
Qed.

(* nor does the splitter's own Library.add *)
Theorem split_length : forall t bs0 bs, split_raw t = Blocks bs0 -> split t = Blocks bs -> List.length bs = List.length bs0.
Proof. intros t bs0 bs S. unfold split. rewrite S. intros E. injection E as <-. apply rebuild_length. Qed.

(* why good_block constrains the metadata:
   with only "str values and raw text", write_string can raise (AttributeError: 'str' object has no attribute 'get'),
   because AddEnclosing reads parser_metadata["removed_enclosing"] even when reuse_previous_enclosing is False *)
Example meta_needed :
  let h := mkhdr (Some 0%Z) (Some []) [(remove_enclosing_metadata_key, VStr [])] in
  let b := BEntry h (lit "a"%string) (lit "k"%string) [mkfield (lit "f"%string) (VStr []) None] in
  wgood b = true /\ write_default default_fmt [b] = PRaise.
Proof. vm_compute. split; reflexivity. Qed.

(* one text with a @string, a good entry, a duplicate
   key, a block with a syntax error (no '=' before the next '@') and an entry that uses the @string *)
Definition c01_text : str := lit "@string{T = {Title}}
@article{k1, a = {x}}
@article{k1, b = 2}
@article{bad, a
@book{g, t = T, u = ""q""}
"%string.

Example c01_example :
  (exists bs, parse_default c01_text = PVal bs /\
              map class_of bs = [CString; CEntry; CDupKey; CFailed; CEntry] /\
              map (fun b => raw (bhdr b)) (filter is_failed_class bs) =
                [Some (lit "@article{k1, b = 2}"%string); Some (lit "@article{bad, a
"%string)]) /\
  parse_write c01_text = PVal (lit "@string{T = {Title}}


@article{k1,
	a = {x}
}


% WARNING Parsing failed for the following 1 lines.
@article{k1, b = 2}


% WARNING Parsing failed for the following 1 lines.
@article{bad, a



@book{g,
	t = {Title},
	u = {q}
}
"%string).
Proof.
  split; [|vm_compute; reflexivity].
  (* through the match only what the statement says of the parse result enters the proof, not its normal form *)
  assert (X : forall (r : pres (list block)) (Q : list block -> Prop),
                match r with PVal x => Q x | _ => False end -> exists x, r = PVal x /\ Q x)
    by (intros [x| |] Q H; try contradiction; eauto).
  apply X. vm_compute. split; reflexivity.
Qed.

Print Assumptions parse_default_total.
Print Assumptions parse_default_good.
Print Assumptions write_default_total.
Print Assumptions parse_write_total.
Print Assumptions failed_carry.
Print Assumptions all_raw_carry.
Print Assumptions parse_default_length.
Print Assumptions split_length.
Print Assumptions default_template_ok.
Print Assumptions meta_needed.
Print Assumptions c01_example.

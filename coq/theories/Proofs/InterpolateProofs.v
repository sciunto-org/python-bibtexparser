(* Proofs for C11 (Model/Interpolate.v against Spec/C11.v). *)
From Coq Require Import List NArith ZArith Bool Lia String.
From BP Require Import Base.Chars Model.Blocks Model.LibAdd Gen.Constants Model.Enclosing Model.Interpolate Spec.C11
  Proofs.LibAddProofs Proofs.DupProofs Proofs.EnclosingProofs.
Import ListNotations.

Lemma first_is_starts c s : first_is c s = true <-> starts s c.
Proof.
  unfold first_is, starts. destruct s as [|x r].
  - split; [discriminate | intros [r H]; discriminate].
  - rewrite ceq_eq. split; [intros ->; exists r; reflexivity | intros [r' H]; inversion H; reflexivity].
Qed.

Lemma last_is_ends c s : last_is c s = true <-> ends s c.
Proof.
  unfold last_is, ends. rewrite rv_rev. destruct (rev s) as [|x r] eqn:E.
  - apply (f_equal (@rev ch)) in E. rewrite rev_involutive in E. simpl in E. subst.
    split; [discriminate | intros [p H]; destruct p; discriminate].
  - apply (f_equal (@rev ch)) in E. rewrite rev_involutive in E. simpl in E. subst.
    rewrite ceq_eq. split; [intros ->; exists (rev r); reflexivity | intros [p H]; apply app_inj_tail in H; tauto].
Qed.

Lemma enclosed_b s : nonstring_or_enclosed (VStr s) = true <-> enclosed s.
Proof.
  unfold nonstring_or_enclosed, enclosed.
  rewrite orb_true_iff, !andb_true_iff, !first_is_starts, !last_is_ends. tauto.
Qed.

Lemma not_enclosed_b v : nonstring_or_enclosed v = false -> exists s, v = VStr s /\ ~ enclosed s.
Proof.
  destruct v as [s| | | | | | | |]; try discriminate. intros E. exists s. split; [reflexivity|].
  intros He. apply enclosed_b in He. congruence.
Qed.

(* the value of the first @string block of a name (Spec/C09.v finds the block) *)
Lemma first_string_value bs k : first_string bs k = option_map string_value (Spec.C09.first_string k bs).
Proof.
  induction bs as [|b bs IH]; [reflexivity|].
  destruct b; cbn [first_string Spec.C09.first_string]; try exact IH. destruct (str_eqb k key); [reflexivity | exact IH].
Qed.

Lemma strs_first_value bs k : option_map string_value (dict_get (strs (lib_of bs)) k) = first_string bs k.
Proof. rewrite strings_dict_first, first_string_value. reflexivity. Qed.

Lemma resolve_fields_spec bs fs :
  res_fields bs fs (fst (resolve_fields (strs (lib_of bs)) fs)) (snd (resolve_fields (strs (lib_of bs)) fs)).
Proof.
  induction fs as [|f r IH]; [constructor|].
  cbn [resolve_fields]. destruct (resolve_fields (strs (lib_of bs)) r) as [r' ks] eqn:Er. cbn [fst snd] in IH.
  destruct (nonstring_or_enclosed (fval f)) eqn:En.
  - cbn [fst snd]. apply rf_miss; [|exact IH]. intros v (s & Ev & Hne & _). rewrite Ev in En. apply enclosed_b in En. contradiction.
  - apply not_enclosed_b in En as (s & Ev & Hne). rewrite Ev. pose proof (strs_first_value bs s) as Hs.
    destruct (dict_get (strs (lib_of bs)) s) as [sb|] eqn:Eg; cbn [fst snd option_map] in *.
    + apply rf_hit; [|exact IH]. exists s. repeat split; [exact Ev | exact Hne | symmetry; exact Hs].
    + apply rf_miss; [|exact IH]. intros v (s' & Ev' & _ & Hf). rewrite Ev in Ev'. injection Ev' as <-. congruence.
Qed.

Definition resolved_hdr (h : hdr) (ks : list str) : hdr :=
  match ks with [] => h | _ => set_meta h resolve_meta_key (VList (map VStr ks)) end.

Lemma resolve_block_entry sd h t k fs :
  resolve_block sd (BEntry h t k fs) =
  BEntry (resolved_hdr h (snd (resolve_fields sd fs))) t k (fst (resolve_fields sd fs)).
Proof. cbn [resolve_block]. destruct (resolve_fields sd fs) as [fs' ks]. destruct ks; reflexivity. Qed.

Lemma resolve_block_other sd b : is_entry b = false -> resolve_block sd b = b.
Proof. destruct b; try discriminate; reflexivity. Qed.

Theorem resolve_entries bs i h t k fs : nth_error (lblocks (lib_of bs)) i = Some (BEntry h t k fs) ->
  exists fs' ks, res_fields bs fs fs' ks /\ nth_error (resolve_lib bs) i = Some (BEntry (resolved_hdr h ks) t k fs').
Proof.
  intros H. exists (fst (resolve_fields (strs (lib_of bs)) fs)), (snd (resolve_fields (strs (lib_of bs)) fs)).
  split; [apply resolve_fields_spec|].
  unfold resolve_lib, resolve_on. rewrite nth_error_map, H. cbn [option_map]. rewrite resolve_block_entry. reflexivity.
Qed.

Theorem resolve_others bs i b : nth_error (lblocks (lib_of bs)) i = Some b -> is_entry b = false ->
  nth_error (resolve_lib bs) i = Some b.
Proof.
  intros H Hb. unfold resolve_lib, resolve_on. rewrite nth_error_map, H. cbn [option_map]. rewrite (resolve_block_other _ b Hb). reflexivity.
Qed.

Theorem resolve_length bs : List.length (resolve_lib bs) = List.length (lblocks (lib_of bs)).
Proof. unfold resolve_lib, resolve_on. apply map_length. Qed.

Lemma res_fields_hit bs fs fs' ks : res_fields bs fs fs' ks -> forall j f v, nth_error fs j = Some f -> Resolvable bs f v ->
  nth_error fs' j = Some (mkfield (fkey f) v (fline f)) /\ In (fkey f) ks.
Proof.
  induction 1 as [|f0 v0 r r' ks Hr _ IH|f0 r r' ks Hn _ IH]; intros j f v Hj Hv.
  - destruct j; discriminate.
  - destruct j as [|j]; simpl in Hj.
    + inversion Hj; subst. destruct Hr as (s & E1 & _ & F1). destruct Hv as (s' & E2 & _ & F2).
      rewrite E1 in E2. inversion E2; subst. rewrite F1 in F2. inversion F2; subst. split; [reflexivity | left; reflexivity].
    + destruct (IH j f v Hj Hv) as [A B]. split; [exact A | right; exact B].
  - destruct j as [|j]; simpl in Hj.
    + inversion Hj; subst. exfalso. exact (Hn v Hv).
    + exact (IH j f v Hj Hv).
Qed.

Lemma res_fields_keys bs fs fs' ks : res_fields bs fs fs' ks ->
  map fkey fs' = map fkey fs /\ map fline fs' = map fline fs /\ (forall k, In k ks -> exists f v, In f fs /\ fkey f = k /\ Resolvable bs f v).
Proof.
  induction 1 as [|f0 v0 r r' ks Hr _ (K1 & K2 & K3)|f0 r r' ks Hn _ (K1 & K2 & K3)].
  - repeat split. intros k [].
  - simpl. rewrite K1, K2. repeat split. intros k [<-|Hk].
    + exists f0, v0. repeat split; [left; reflexivity | exact Hr].
    + destruct (K3 k Hk) as (f & v & A & B & C). exists f, v. repeat split; [right; exact A | exact B | exact C].
  - simpl. rewrite K1, K2. repeat split. intros k Hk.
    destruct (K3 k Hk) as (f & v & A & B & C). exists f, v. repeat split; [right; exact A | exact B | exact C].
Qed.

Lemma res_fields_miss bs fs fs' ks : res_fields bs fs fs' ks -> forall j f, nth_error fs j = Some f -> (forall v, ~ Resolvable bs f v) ->
  nth_error fs' j = Some f /\ (NoDup (map fkey fs) -> ~ In (fkey f) ks).
Proof.
  induction 1 as [|f0 v0 r r' ks Hr Hrest IH|f0 r r' ks Hn Hrest IH]; intros j f Hj Hv.
  - destruct j; discriminate.
  - destruct j as [|j]; simpl in Hj.
    + inversion Hj; subst. exfalso. exact (Hv v0 Hr).
    + destruct (IH j f Hj Hv) as [A B]. split; [exact A|]. intros Hnd. simpl in Hnd. inversion Hnd as [|x l Hnot Hnd']; subst.
      intros [E|Hin]; [|exact (B Hnd' Hin)].
      apply Hnot. rewrite E. apply in_map. apply nth_error_In in Hj. exact Hj.
  - destruct j as [|j]; simpl in Hj.
    + inversion Hj; subst. split; [reflexivity|]. intros Hnd. simpl in Hnd. inversion Hnd as [|x l Hnot Hnd']; subst.
      intros Hin. destruct (res_fields_keys _ _ _ _ Hrest) as (_ & _ & K3). destruct (K3 _ Hin) as (g & v & A & B & _).
      apply Hnot. rewrite <- B. apply in_map. exact A.
    + destruct (IH j f Hj Hv) as [A B]. split; [exact A|]. intros Hnd. simpl in Hnd. inversion Hnd; subst. apply B. assumption.
Qed.

Lemma Forall2_map_self {T} (f : T -> T) (l : list T) : Forall2 (fun x y => y = f x) l (map f l).
Proof. induction l; simpl; constructor; [reflexivity | assumption]. Qed.

Lemma Forall2_map_l {T U} (f : T -> T) (R : T -> U -> Prop) l l' : Forall2 R (map f l) l' -> Forall2 (fun x y => R (f x) y) l l'.
Proof.
  revert l'. induction l as [|x l IH]; intros l' H; simpl in H; inversion H; subst; constructor; [assumption | apply IH; assumption].
Qed.

Lemma Forall2_nth {T U} (R : T -> U -> Prop) l l' : Forall2 R l l' -> forall i x, nth_error l i = Some x ->
  exists y, nth_error l' i = Some y /\ R x y.
Proof.
  induction 1 as [|a b l l' Hab _ IH]; intros i x Hi.
  - destruct i; discriminate.
  - destruct i as [|i]; simpl in Hi.
    + inversion Hi; subst. exists b. split; [reflexivity | exact Hab].
    + exact (IH i x Hi).
Qed.

Lemma resolve_block_keys sd b : ekey (resolve_block sd b) = ekey b /\ skey (resolve_block sd b) = skey b.
Proof.
  destruct b; try (split; reflexivity). rewrite resolve_block_entry. split; reflexivity.
Qed.

Lemma resolve_lib_wf bs : wf_blocks (resolve_lib bs).
Proof.
  unfold resolve_lib, resolve_on.
  apply (wf_Forall2 (fun x y => y = resolve_block (strs (lib_of bs)) x) (lblocks (lib_of bs))).
  - intros b b' ->. apply resolve_block_keys.
  - apply Forall2_map_self.
  - apply lib_of_wf.
Qed.

Theorem default_stack_blockwise bs out : default_stack bs = Val out ->
  Forall2 (fun b b' => remove_block (resolve_block (strs (lib_of bs)) b) = Val b') (lblocks (lib_of bs)) out.
Proof.
  intros H. unfold default_stack in H.
  pose proof (remove_lib_blockwise _ _ (resolve_lib_wf bs) H) as F.
  unfold resolve_lib, resolve_on in F. apply Forall2_map_l in F. exact F.
Qed.

Lemma default_stack_other bs out i b : default_stack bs = Val out ->
  nth_error (lblocks (lib_of bs)) i = Some b -> is_entry b = false ->
  exists b', remove_block b = Val b' /\ nth_error out i = Some b'.
Proof.
  intros H Hi Hb. destruct (Forall2_nth _ _ _ (default_stack_blockwise _ _ H) i b Hi) as (y & Hy & Ry).
  rewrite (resolve_block_other _ b Hb) in Ry. exists y. split; assumption.
Qed.

Theorem default_stack_strings bs out out0 : default_stack bs = Val out -> remove_lib (lblocks (lib_of bs)) = Val out0 ->
  forall i b, nth_error (lblocks (lib_of bs)) i = Some b -> is_entry b = false -> nth_error out i = nth_error out0 i.
Proof.
  intros H H0 i b Hi Hb. destruct (default_stack_other _ _ _ _ H Hi Hb) as (y & Ry & ->).
  destruct (Forall2_nth _ _ _ (remove_lib_blockwise _ _ (lib_of_wf bs) H0) i b Hi) as (y0 & -> & Ry0). congruence.
Qed.

Lemma default_stack_entry bs out i h t k fs : default_stack bs = Val out ->
  nth_error (lblocks (lib_of bs)) i = Some (BEntry h t k fs) ->
  exists fs1 ks fs2 md, res_fields bs fs fs1 ks /\ Forall2 stripped_field fs1 fs2
    /\ nth_error out i = Some (BEntry (set_meta (resolved_hdr h ks) remove_enclosing_metadata_key (VDict md)) t k fs2).
Proof.
  intros H Hi. destruct (Forall2_nth _ _ _ (default_stack_blockwise _ _ H) i _ Hi) as (y & Hy & Ry).
  rewrite resolve_block_entry in Ry. destruct (remove_entry_spec _ _ _ _ _ Ry) as (fs2 & md & -> & F & _).
  eexists _, _, fs2, md. split; [apply resolve_fields_spec|]. split; [exact F | exact Hy].
Qed.

Lemma resolved_hdr_frame h ks : sl (resolved_hdr h ks) = sl h /\ raw (resolved_hdr h ks) = raw h.
Proof. destruct ks; split; reflexivity. Qed.

Lemma resolved_stripped_at bs fs fs1 ks fs2 : res_fields bs fs fs1 ks -> Forall2 stripped_field fs1 fs2 ->
  forall j f, nth_error fs j = Some f ->
    (forall sv, Resolvable bs f (VStr sv) ->
       nth_error fs2 j = Some (mkfield (fkey f) (VStr (fst (strip_enclosing sv))) (fline f)) /\ In (fkey f) ks)
    /\ (forall s, fval f = VStr s -> (forall v, ~ Resolvable bs f v) ->
       nth_error fs2 j = Some (mkfield (fkey f) (VStr (fst (strip_enclosing s))) (fline f))
       /\ (NoDup (map fkey fs) -> ~ In (fkey f) ks)).
Proof.
  intros RF F j f Hj. split.
  - intros sv Hr. destruct (res_fields_hit _ _ _ _ RF j f _ Hj Hr) as [A Hin].
    destruct (Forall2_nth _ _ _ F j _ A) as (f2 & Hf2 & (s & [= <-] & ->)). split; assumption.
  - intros s Es Hn. destruct (res_fields_miss _ _ _ _ RF j f Hj Hn) as [A Hnot].
    destruct (Forall2_nth _ _ _ F j _ A) as (f2 & Hf2 & (s' & Es' & ->)). rewrite Es in Es'. injection Es' as <-.
    split; assumption.
Qed.

Theorem default_stack_field bs out i h t k fs : default_stack bs = Val out ->
  nth_error (lblocks (lib_of bs)) i = Some (BEntry h t k fs) ->
  exists h' fs'', nth_error out i = Some (BEntry h' t k fs'') /\ sl h' = sl h /\ raw h' = raw h
    /\ forall j f, nth_error fs j = Some f ->
         (forall sv, Resolvable bs f (VStr sv) ->
            nth_error fs'' j = Some (mkfield (fkey f) (VStr (fst (strip_enclosing sv))) (fline f)))
         /\ (forall s, fval f = VStr s -> (forall v, ~ Resolvable bs f v) ->
            nth_error fs'' j = Some (mkfield (fkey f) (VStr (fst (strip_enclosing s))) (fline f))).
Proof.
  intros H Hi. destruct (default_stack_entry _ _ _ _ _ _ _ H Hi) as (fs1 & ks & fs2 & md & RF & F & Hy).
  eexists. exists fs2. split; [exact Hy|]. split; [exact (proj1 (resolved_hdr_frame h ks))|].
  split; [exact (proj2 (resolved_hdr_frame h ks))|].
  intros j f Hj. destruct (resolved_stripped_at _ _ _ _ _ RF F j f Hj) as [A B].
  split; [intros sv Hr; apply (A sv Hr) | intros s Es Hn; apply (B s Es Hn)].
Qed.

(* the other order differs: after RemoveEnclosing the value {a} has become the bare a and is (wrongly) resolved *)
Definition order_witness : list block :=
  [BString hdr0 (lit "a") (VStr (c_quote :: lit "x" ++ [c_quote]));
   BEntry hdr0 (lit "article") (lit "k") [mkfield (lit "t") (VStr (lit "{a}")) None]].

Definition field_values (r : res (list block)) : list (list value) :=
  match r with Val bs => map (fun b => match b with BEntry _ _ _ fs => map fval fs | _ => [] end) bs | _ => [] end.

Theorem order_matters :
  field_values (default_stack order_witness) = [[]; [VStr (lit "a")]]
  /\ field_values (swapped_stack order_witness) = [[]; [VStr (lit "x")]]
  /\ default_stack order_witness <> swapped_stack order_witness.
Proof.
  split; [vm_compute; reflexivity|]. split; [vm_compute; reflexivity|].
  intros H. apply (f_equal field_values) in H. vm_compute in H. discriminate.
Qed.

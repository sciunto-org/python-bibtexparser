(* C14, partition layer: re-partitioning the merged layout  "von Last[, Jr], First"  returns the same parts. *)
From Coq Require Import List NArith ZArith Bool Lia PeanoNat.
From BP Require Import Model.Names Spec.C13 Proofs.NamesParseProofs.
Import ListNotations.

(* the partition with the words still paired with their cases *)
Record cparts := mkcparts { c_first : list cword; c_von : list cword; c_last : list cword; c_jr : list cword }.
Definition strs (q : cparts) : parts := mkparts (map fst (c_first q)) (map fst (c_von q)) (map fst (c_last q)) (map fst (c_jr q)).

Definition partition_cw (secs : list (list cword)) : cparts :=
  match secs with
  | [] => mkcparts [] [] [] []
  | [sec] =>
      match sec with
      | [] => mkcparts [] [] [] []
      | [a] => mkcparts [] [] [a] []
      | [a; b] => mkcparts [a] [] [b] []
      | _ =>
          let f := leading (fun x => negb (is_lower x)) (removelast sec) in
          let k := Nat.max f (von_end sec) in
          mkcparts (firstn f sec) (firstn (k - f) (skipn f sec)) (skipn k sec) []
      end
  | sec0 :: rest =>
      let k := von_end sec0 in
      mkcparts (last rest []) (firstn k sec0) (skipn k sec0) (match rest with [jr; _] => jr | _ => [] end)
  end.

Lemma partition_cw_strs secs : partition_spec secs = strs (partition_cw secs).
Proof.
  destruct secs as [|sec0 [|s1 rest]]; [reflexivity| |].
  - destruct sec0 as [|a [|b [|c r]]]; reflexivity.
  - unfold partition_spec, partition_cw, strs. cbn [c_first c_von c_last c_jr]. f_equal.
    destruct rest as [|s2 [|s3 r]]; reflexivity.
Qed.

(* the sections of  merge_last_name_first:  "von Last" [, "Jr"], "First"  -- absent parts are left out *)
Definition relayout (q : cparts) : list (list cword) :=
  match c_first q, c_jr q with
  | [], [] => [c_von q ++ c_last q]
  | _, [] => [c_von q ++ c_last q; c_first q]
  | _, _ => [c_von q ++ c_last q; c_jr q; c_first q]
  end.

(* what a successful strict parse delivers: 1-3 sections, the last one non-empty when there are several *)
Definition valid_layout (secs : list (list cword)) : Prop :=
  match secs with
  | [_] => True
  | [_; f] => f <> []
  | [_; _; f] => f <> []
  | _ => False
  end.

Lemma upto_last_skip_leading {A} (p : A -> bool) l :
  upto_last p (skipn (leading (fun x => negb (p x)) l) l)
  = (Nat.max (leading (fun x => negb (p x)) l) (upto_last p l) - leading (fun x => negb (p x)) l)%nat.
Proof.
  induction l as [|x r IH]; [reflexivity|]. cbn [leading].
  destruct (p x) eqn:E; cbn [negb].
  - cbn [skipn]. lia.
  - cbn [skipn]. rewrite IH. cbn [upto_last]. rewrite E.
    destruct (upto_last p r); lia.
Qed.

Lemma removelast_skipn {A} (l : list A) n : (n < length l)%nat -> removelast (skipn n l) = skipn n (removelast l).
Proof.
  revert n. induction l as [|x l IH]; intros n H; [simpl in H; lia|].
  destruct n as [|n]; [reflexivity|].
  destruct l as [|y l]; [simpl in H; lia|].
  change (removelast (x :: y :: l)) with (x :: removelast (y :: l)). cbn [skipn]. apply IH. simpl in *. lia.
Qed.

Lemma repartition_form1 (sec : list cword) : (3 <= length sec)%nat ->
  let f := leading (fun x => negb (is_lower x)) (removelast sec) in
  let k := Nat.max f (von_end sec) in
  von_end (skipn f sec) = (k - f)%nat /\ (f <= k)%nat /\ (k < length sec)%nat.
Proof.
  intros Hn f k. destruct (form1_bounds sec) as [Hfk Hk]; [intros ->; simpl in Hn; lia|]. fold f k in Hfk, Hk.
  split; [|split; assumption].
  unfold von_end at 1. rewrite removelast_skipn by (unfold k in *; lia).
  unfold k, von_end, f. apply upto_last_skip_leading.
Qed.

(* a section of three or more words: First is the leading non-lower-case words, von reaches to the last lower-case one *)
Lemma partition_cw_long sec : (3 <= length sec)%nat ->
  partition_cw [sec] =
  let f := leading (fun x => negb (is_lower x)) (removelast sec) in
  let k := Nat.max f (von_end sec) in
  mkcparts (firstn f sec) (firstn (k - f) (skipn f sec)) (skipn k sec) [].
Proof. destruct sec as [|a [|b [|c r]]]; simpl; intros H; try lia. reflexivity. Qed.

Lemma repartition secs : valid_layout secs -> partition_cw (relayout (partition_cw secs)) = partition_cw secs.
Proof.
  intros HV.
  destruct secs as [|sec0 [|s1 [|s2 [|s3 rest]]]]; try contradiction.
  - (* one section *)
    destruct sec0 as [|a [|b [|c r]]]; try reflexivity.
    set (sec := a :: b :: c :: r). assert (Hn : (3 <= length sec)%nat) by (simpl; lia).
    rewrite (partition_cw_long sec Hn). destruct (repartition_form1 sec Hn) as (E1 & Hfk & Hk). cbv zeta in *.
    set (f := leading (fun x => negb (is_lower x)) (removelast sec)) in *.
    set (k := Nat.max f (von_end sec)) in *.
    unfold relayout. cbn [c_first c_von c_last c_jr].
    replace (firstn (k - f) (skipn f sec) ++ skipn k sec) with (skipn f sec).
    2:{ replace (skipn k sec) with (skipn (k - f) (skipn f sec)) by (rewrite skipn_add; f_equal; lia). symmetry. apply firstn_skipn. }
    destruct (firstn f sec) as [|x0 F] eqn:EF.
    + (* First is empty: the merged text is the same single section *)
      assert (Hf0 : f = 0%nat) by (destruct f; [reflexivity | discriminate EF]).
      rewrite Hf0 in *. cbn [skipn]. rewrite (partition_cw_long sec Hn). cbv zeta. fold f. fold k. rewrite Hf0. reflexivity.
    + (* "von Last, First" *)
      change (partition_cw [skipn f sec; x0 :: F]) with
        (mkcparts (x0 :: F) (firstn (von_end (skipn f sec)) (skipn f sec)) (skipn (von_end (skipn f sec)) (skipn f sec)) []).
      rewrite E1, skipn_add. replace (k - f + f)%nat with k by lia. reflexivity.
  - (* von Last, First *)
    cbn [valid_layout] in HV.
    change (partition_cw [sec0; s1]) with (mkcparts s1 (firstn (von_end sec0) sec0) (skipn (von_end sec0) sec0) []).
    unfold relayout. cbn [c_first c_von c_last c_jr]. rewrite firstn_skipn.
    destruct s1 as [|x s1]; [contradiction|]. reflexivity.
  - (* von Last, Jr, First *)
    cbn [valid_layout] in HV.
    change (partition_cw [sec0; s1; s2]) with (mkcparts s2 (firstn (von_end sec0) sec0) (skipn (von_end sec0) sec0) s1).
    unfold relayout. cbn [c_first c_von c_last c_jr]. rewrite firstn_skipn.
    destruct s2 as [|x s2]; [contradiction|].
    destruct s1 as [|y s1]; reflexivity.
Qed.

(* C02, C04 and C09 over the dialect AST, repeated field names allowed: expected_dup is the ground truth with
   duplicate-field blocks (split_render_dup); a well-formed document ending in a complete block leaves the
   machine closed (doc_ends_closed), one starting with a block starts with an '@' mark (doc_starts_with_block),
   which discharge the machine-state hypotheses of C04. *)
From Coq Require Import List NArith ZArith Bool Lia String.
From BP Require Import Base.Chars Model.Blocks Model.Lexer Model.Splitter Spec.C03 Spec.C04 Spec.C09 Model.Grammar
  Proofs.SplitTotal Proofs.SplitGrammar Proofs.SplitResync Proofs.DupProofs.
Import ListNotations.
Local Open Scope Z_scope.

(* the splitter's bookkeeping (Splitter.ob_field) replayed on the list of field names *)
Definition seen_upd (k : str) (sn : list str) : list str := if mem_str k sn then sn else k :: sn.
Definition dups_upd (k : str) (sn dp : list str) : list str :=
  if mem_str k sn && negb (mem_str k dp) then k :: dp else dp.
Fixpoint dup_scan (sn dp : list str) (names : list str) : list str :=
  match names with
  | [] => dp
  | k :: r => dup_scan (seen_upd k sn) (dups_upd k sn dp) r
  end.
(* the emitted block for an entry: wrapper iff the duplicate list is not empty (Splitter.entry_block) *)
Definition wrap_dups (h : hdr) (dp : list str) (e : block) : block :=
  match dp with [] => e | ds => BDupField h (sort_strs ds) e end.

(* the duplicate names of an entry's field list (most recently found first; wrap_dups sorts them) *)
Definition dup_names (fs : gfields) : list str := dup_scan [] [] (field_names fs).

Definition block_of_dup (ln : Z) (it : item) : block :=
  match it with
  | IEntry _ _ _ _ _ (EComma fs) =>
      wrap_dups (mkhdr (Some ln) (Some (render_item it)) []) (dup_names fs) (block_of ln it)
  | _ => block_of ln it
  end.
Fixpoint exp_items_dup (ln : Z) (l : list (item * str)) : list block :=
  match l with
  | [] => []
  | (it, g) :: r => block_of_dup ln it :: exp_items_dup (ln + count_nl (render_item it ++ g))%Z r
  end.
Definition expected_dup (d : doc) : list block := exp_items_dup (count_nl (d_gap0 d)) (d_items d).

(* these definitions are, name for name, the ground truth with repeated field names of Proofs/SplitGrammar.v *)
Lemma exp_items_dup_rep ln l : exp_items_dup ln l = exp_rep ln l.
Proof. reflexivity. Qed.
Theorem expected_dup_nodup d : nodup_fields d -> expected_dup d = expected d.
Proof. intros H. unfold expected_dup. rewrite exp_items_dup_rep. apply exp_rep_nodup, H. Qed.

(* what dup_names computes: the names occurring at least twice, each once; the wrapper appears iff there is one *)
Local Close Scope Z_scope.
Theorem dup_names_spec fs :
  NoDup (dup_names fs) /\ (forall k, In k (dup_names fs) <-> 2 <= cnt k (field_names fs)) /\
  (dup_names fs = [] <-> has_dup (field_names fs) = false).
Proof.
  assert (H0 : scan_inv [] [] []).
  { split; [constructor | split; [tauto | split; [constructor|]]]. intros k. cbn [In cnt]. split; [tauto | lia]. }
  destruct (dups_after_spec (field_names fs) [] [] [] H0) as (sn' & H).
  change (dups_after [] [] (field_names fs)) with (dup_names fs) in H. rewrite app_nil_r in H.
  pose proof (scan_inv_dups_nil _ _ _ H) as N. rewrite has_dup_rev in N.
  destruct H as (_ & _ & H1 & H2). split; [exact H1|]. split; [|exact N].
  intros k. rewrite H2, cnt_rev. reflexivity.
Qed.
Corollary block_of_dup_spec ln typ h w1 key w2 fs :
  block_of_dup ln (IEntry typ h w1 key w2 (EComma fs))
  = if has_dup (field_names fs)
    then BDupField (mkhdr (Some ln) (Some (render_item (IEntry typ h w1 key w2 (EComma fs)))) [])
                   (sort_strs (dup_names fs)) (block_of ln (IEntry typ h w1 key w2 (EComma fs)))
    else block_of ln (IEntry typ h w1 key w2 (EComma fs)).
Proof.
  destruct (dup_names_spec fs) as (_ & _ & [H1 H2]). unfold block_of_dup, wrap_dups.
  destruct (dup_names fs) as [|x l] eqn:E.
  - rewrite (H1 eq_refl). reflexivity.
  - destruct (has_dup (field_names fs)); [reflexivity|]. discriminate (H2 eq_refl).
Qed.
Print Assumptions dup_names_spec.
Print Assumptions block_of_dup_spec.
Local Open Scope Z_scope.

(* C02 without nodup_fields: an entry that repeats a field name comes back as a duplicate-field block *)
Theorem split_render_dup : forall d, wf_doc d -> split_raw (render d) = Blocks (expected_dup d).
Proof. intros d Hwf. unfold expected_dup. rewrite exp_items_dup_rep. apply split_render_rep, Hwf. Qed.
Print Assumptions split_render_dup.

Lemma render_items_app a b : render_items (a ++ b) = render_items a ++ render_items b.
Proof. induction a as [|[it g] a IH]; cbn [app render_items]; [reflexivity|]. rewrite IH, <- !app_assoc. reflexivity. Qed.

(* a document "ending in a complete block": the last item is a block item and nothing follows it *)
Fixpoint ends_block_items (l : list (item * str)) : bool :=
  match l with
  | [] => false
  | [(it, g)] => negb (is_free it) && match g with [] => true | _ => false end
  | _ :: r => ends_block_items r
  end.
Definition ends_in_block (d : doc) : Prop := ends_block_items (d_items d) = true.
Lemma run_items_closed : forall items pf pb ln o P icl B,
  wf_items pf items = true -> ends_block_items items = true ->
  closed (runf pb (render_items items) (mkst Out ln o (rev P) icl B)).
Proof.
  induction items as [|[it g] r IH]; intros pf pb ln o P icl B Hwf He; [discriminate|].
  cbn [wf_items] in Hwf. band Hwf. destruct Hwf as ((((Hit & Hg) & Hadj) & Hna) & Hr). cbn [render_items].
  destruct (run_item it g (render_items r) pb ln o P icl B Hit Hna) as (pb' & B' & ->).
  destruct r as [|p r'].
  - cbn [ends_block_items] in He. destruct (is_free it); [discriminate He|]. destruct g; [|discriminate He].
    split; reflexivity.
  - destruct (is_free it); [apply (IH true) | apply (IH false)]; assumption.
Qed.

Theorem doc_ends_closed : forall d, wf_doc d -> ends_in_block d ->
  md (run (render d)) = Out /\ ic_rev (run (render d)) = [].
Proof.
  intros d Hwf He. unfold wf_doc, wf_doc_b in Hwf. apply andb_true_iff in Hwf as [Hg Hwf].
  rewrite (run_doc d Hg). exact (run_items_closed _ _ _ _ _ _ _ _ Hwf He).
Qed.
Print Assumptions doc_ends_closed.

Definition starts_block_items (l : list (item * str)) : bool :=
  match l with (it, _) :: _ => negb (is_free it) | [] => false end.
Definition starts_with_block_b (d : doc) : bool :=
  match d_gap0 d with [] => true | _ => false end && starts_block_items (d_items d).
Definition starts_with_block (d : doc) : Prop := starts_with_block_b d = true.

Lemma body_head it : is_free it = false -> wf_item it = true ->
  exists w h X, render_body it = w ++ h ++ c_lb :: X /\ forallb isword w = true /\ is_hws h = true.
Proof.
  destruct it as [typ h w1 key w2 t|kw h w1 name w2 w3 v w4|kw h b|kw h b|t]; intros Fr Hwf; try discriminate Fr;
    cbn [wf_item] in Hwf; band Hwf; cbn [render_body].
  - destruct Hwf as (((((((((Ht & Hh) & _) & _) & _) & _) & _) & _) & _) & _).
    exists typ, h, (w1 ++ key ++ w2 ++ render_etail t). split; [|split; [apply (typ_tight typ Ht) | exact Hh]].
    unfold entry_head. rewrite <- !app_assoc. cbn [app]. rewrite <- !app_assoc. reflexivity.
  - destruct Hwf as ((((((((((Hkw & Hh) & _) & _) & _) & _) & _) & _) & _) & _) & _).
    exists kw, h, (w1 ++ name ++ w2 ++ c_eq :: w3 ++ render_value v ++ w4 ++ [c_rb]). auto.
  - destruct Hwf as (((Hkw & Hh) & _) & _). exists kw, h, (render_braced b ++ [c_rb]). auto.
  - destruct Hwf as (((Hkw & Hh) & _) & _). exists kw, h, (render_braced b ++ [c_rb]). auto.
Qed.

Theorem doc_starts_with_block : forall d, wf_doc d -> starts_with_block d ->
  exists r, render d = c_at :: r /\ at_ok r = true.
Proof.
  intros [g0 items] Hwf Hs. unfold starts_with_block, starts_with_block_b in Hs. cbn [d_gap0 d_items] in Hs.
  destruct g0; [|discriminate Hs]. destruct items as [|[it g] r]; [discriminate Hs|].
  cbn [andb starts_block_items] in Hs. apply negb_true_iff in Hs.
  unfold wf_doc, wf_doc_b in Hwf. cbn [d_gap0 d_items is_ws forallb andb wf_items] in Hwf. band Hwf.
  destruct Hwf as ((((Hit & _) & _) & _) & _).
  destruct (body_head it Hs Hit) as (w & h & X & E & Hw & Hh).
  exists (render_body it ++ g ++ render_items r). split.
  - unfold render. cbn [d_gap0 d_items app render_items]. destruct it; try discriminate Hs; reflexivity.
  - rewrite E, <- !app_assoc. cbn [app]. apply at_ok_head; assumption.
Qed.
Print Assumptions doc_starts_with_block.

Theorem C04_doc_prefix_stable_dup : forall d, wf_doc d -> ends_in_block d ->
  forall x, exists rest, split_raw (render d ++ x) = Blocks (expected_dup d ++ rest).
Proof.
  intros d Hwf He x. destruct (doc_ends_closed d Hwf He) as [Hm Hi].
  exact (prefix_stable' (render d) x (expected_dup d) Hm Hi (split_render_dup d Hwf)).
Qed.
Theorem C04_doc_resync_dup : forall d, wf_doc d -> starts_with_block d ->
  forall x, exists pre items,
    split_raw (x ++ c_nl :: render d) = Blocks (pre ++ map (shiftb (count_nl x + 1)) (expected_dup d)) /\
    raw_lines pre = Some items /\ tiledL (-1) (c_nl :: x ++ [c_nl]) items.
Proof.
  intros d Hwf Hs x. destruct (doc_starts_with_block d Hwf Hs) as (r & Er & Hat).
  assert (E0 := split_render_dup d Hwf). rewrite Er in *.
  destruct (split_raw_total (x ++ c_nl :: c_at :: r)) as [B EB].
  destruct (resync_tiles x r B (expected_dup d) Hat EB E0) as (pre & items & -> & H1 & H2).
  exists pre, items. auto.
Qed.
Theorem C04_doc_concat_dup : forall d1 d2, wf_doc d1 -> ends_in_block d1 -> wf_doc d2 -> starts_with_block d2 ->
  split_raw (render d1 ++ c_nl :: render d2)
  = Blocks (expected_dup d1 ++ map (shiftb (count_nl (render d1) + 1)) (expected_dup d2)).
Proof.
  intros d1 d2 Hwf1 He Hwf2 Hs. destruct (doc_ends_closed d1 Hwf1 He) as [Hm Hi].
  destruct (doc_starts_with_block d2 Hwf2 Hs) as (r & Er & Hat).
  assert (E2 := split_render_dup d2 Hwf2). rewrite Er in *.
  exact (concat' (render d1) r _ _ Hm Hi Hat (split_render_dup d1 Hwf1) E2).
Qed.

Theorem C04_doc_prefix_stable : forall d, wf_doc d -> nodup_fields d -> ends_in_block d ->
  forall x, exists rest, split_raw (render d ++ x) = Blocks (expected d ++ rest).
Proof. intros d Hwf Hnd. rewrite <- (expected_dup_nodup d Hnd). apply C04_doc_prefix_stable_dup, Hwf. Qed.
Theorem C04_doc_resync_tiles : forall d, wf_doc d -> nodup_fields d -> starts_with_block d ->
  forall x, exists pre items,
    split_raw (x ++ c_nl :: render d) = Blocks (pre ++ map (shiftb (count_nl x + 1)) (expected d)) /\
    raw_lines pre = Some items /\ tiledL (-1) (c_nl :: x ++ [c_nl]) items.
Proof. intros d Hwf Hnd. rewrite <- (expected_dup_nodup d Hnd). apply C04_doc_resync_dup, Hwf. Qed.
Theorem C04_doc_resync : forall d, wf_doc d -> nodup_fields d -> starts_with_block d ->
  forall x, exists pre, split_raw (x ++ c_nl :: render d) = Blocks (pre ++ map (shiftb (count_nl x + 1)) (expected d)).
Proof.
  intros d Hwf Hnd Hs x. destruct (C04_doc_resync_tiles d Hwf Hnd Hs x) as (pre & items & E & _). exists pre. exact E.
Qed.
Theorem C04_doc_concat : forall d1 d2,
  wf_doc d1 -> nodup_fields d1 -> ends_in_block d1 -> wf_doc d2 -> nodup_fields d2 -> starts_with_block d2 ->
  split_raw (render d1 ++ c_nl :: render d2)
  = Blocks (expected d1 ++ map (shiftb (count_nl (render d1) + 1)) (expected d2)).
Proof.
  intros d1 d2 Hwf1 Hnd1 He Hwf2 Hnd2 Hs. rewrite <- (expected_dup_nodup d1 Hnd1), <- (expected_dup_nodup d2 Hnd2).
  apply C04_doc_concat_dup; assumption.
Qed.
Print Assumptions C04_doc_prefix_stable.
Print Assumptions C04_doc_resync_tiles.
Print Assumptions C04_doc_resync.
Print Assumptions C04_doc_concat.

Local Close Scope Z_scope.
Lemma exp_items_length l : forall ln, List.length (exp_items ln l) = List.length l.
Proof. induction l as [|[it g] r IH]; intros ln; cbn [exp_items List.length]; [reflexivity | rewrite IH; reflexivity]. Qed.
Lemma exp_items_dup_length l : forall ln, List.length (exp_items_dup ln l) = List.length l.
Proof. induction l as [|[it g] r IH]; intros ln; cbn [exp_items_dup List.length]; [reflexivity | rewrite IH; reflexivity]. Qed.
Theorem expected_length d : List.length (expected d) = List.length (d_items d).
Proof. apply exp_items_length. Qed.
Theorem expected_dup_length d : List.length (expected_dup d) = List.length (d_items d).
Proof. apply exp_items_dup_length. Qed.

Theorem C09_doc_classify_dup : forall d, wf_doc d -> split (render d) = Blocks (flag_all [] (expected_dup d)).
Proof. intros d Hwf. apply split_is_flagged, split_render_dup, Hwf. Qed.
Theorem C09_doc_count_dup : forall d, wf_doc d ->
  forall bs, split (render d) = Blocks bs -> List.length bs = List.length (d_items d).
Proof.
  intros d Hwf bs H. rewrite (C09_doc_classify_dup d Hwf) in H. injection H as <-.
  rewrite flag_all_length. apply expected_dup_length.
Qed.
Theorem C09_doc_position_dup : forall d, wf_doc d ->
  forall bs i dflt, split (render d) = Blocks bs -> i < List.length (d_items d) ->
  nth i bs dflt = flagged (firstn i (expected_dup d)) (nth i (expected_dup d) dflt).
Proof.
  intros d Hwf bs i dflt H Hi. rewrite (C09_doc_classify_dup d Hwf) in H. injection H as <-.
  rewrite <- expected_dup_length in Hi. apply (flag_all_nth (expected_dup d) [] i dflt Hi).
Qed.

Theorem C09_doc_classify : forall d, wf_doc d -> nodup_fields d -> split (render d) = Blocks (flag_all [] (expected d)).
Proof. intros d Hwf Hnd. rewrite <- (expected_dup_nodup d Hnd). apply C09_doc_classify_dup, Hwf. Qed.
Theorem C09_doc_position : forall d, wf_doc d -> nodup_fields d ->
  forall bs i dflt, split (render d) = Blocks bs -> i < List.length (d_items d) ->
  nth i bs dflt = flagged (firstn i (expected d)) (nth i (expected d) dflt).
Proof. intros d Hwf Hnd. rewrite <- (expected_dup_nodup d Hnd). apply C09_doc_position_dup, Hwf. Qed.
Print Assumptions C09_doc_classify_dup.
Print Assumptions C09_doc_count_dup.
Print Assumptions C09_doc_position_dup.
Print Assumptions C09_doc_classify.
Print Assumptions C09_doc_position.
Print Assumptions expected_length.

(* the ground truth of a well-formed document is consistent about repeated field names (DupProofs.dup_ok): a plain
   entry has pairwise distinct field names; a wrapper has the inner entry's header, an inner entry with a repeated
   name, and as keys exactly the names occurring at least twice, each once *)
Corollary expected_dup_ok d : wf_doc d -> Forall dup_ok (expected_dup d).
Proof. intros Hwf. exact (split_raw_dup_ok (render d) (expected_dup d) (split_render_dup d Hwf)). Qed.
Print Assumptions expected_dup_ok.
Lemma exp_fields_names fs : forall ln, map fkey (exp_fields ln fs) = field_names fs.
Proof. induction fs as [w|f|f r IH]; intros ln; cbn [exp_fields field_names map]; [reflexivity | reflexivity | rewrite IH; reflexivity]. Qed.

Local Open Scope Z_scope.
Definition gc_fa : gfield := mkgf sp_ (lit "t") [] [] (mkgv (PBraced (bs_ (lit "x") BNil)) []) [].
Definition gc_fb : gfield := mkgf sp_ (lit "u") sp_ sp_ (mkgv (PBare (lit "12")) []) [].
Definition gc_e1 : item := IEntry (lit "a") [] [] (lit "k") [] (EComma (FCons gc_fa (FLast gc_fb))).
Definition gc_e2 : item := IEntry (lit "b") [] [] (lit "k") [] ENoComma.
Definition gc_e3 : item := IEntry (lit "c") [] [] (lit "j") [] (EComma (FCons gc_fa (FCons gc_fb (FLast gc_fa)))).
Definition gc_s1 : item := IString (lit "string") [] [] (lit "m") sp_ sp_ (mkgv (PQuoted (qs_ (lit "M") QNil)) []) [].
(* starts and ends with a block; entry key k and string name m repeat; field names distinct *)
Definition gc_da : doc := mkdoc [] [(gc_e1, [c_nl]); (gc_s1, [c_nl]); (gc_e2, [c_nl]); (gc_s1, [])].
(* ends with a block; the entry c repeats the field name t *)
Definition gc_db : doc := mkdoc [c_nl] [(IFree (lit "junk"), [c_nl]); (gc_e3, [c_nl]); (gc_e1, [])].

Example gc_da_render : render gc_da = lit "@a{k, t={x}, u = 12}
@string{m = ""M""}
@b{k}
@string{m = ""M""}".
Proof. vm_compute. reflexivity. Qed.
Example gc_db_render : render gc_db = lit "
junk
@c{j, t={x}, u = 12, t={x}}
@a{k, t={x}, u = 12}".
Proof. vm_compute. reflexivity. Qed.
Example gc_da_wf : wf_doc gc_da.  Proof. vm_compute. reflexivity. Qed.
Example gc_da_nodup : nodup_fields gc_da.  Proof. vm_compute. reflexivity. Qed.
Example gc_da_ends : ends_in_block gc_da.  Proof. vm_compute. reflexivity. Qed.
Example gc_da_starts : starts_with_block gc_da.  Proof. vm_compute. reflexivity. Qed.
Example gc_db_wf : wf_doc gc_db.  Proof. vm_compute. reflexivity. Qed.
Example gc_db_not_nodup : nodup_fields_b gc_db = false.  Proof. vm_compute. reflexivity. Qed.
Example gc_db_ends : ends_in_block gc_db.  Proof. vm_compute. reflexivity. Qed.
(* SplitGrammar.ex_doc ends in free text and starts with a gap: outside both predicates *)
Example ex_doc_not_ends : ends_block_items (d_items ex_doc) = false.  Proof. vm_compute. reflexivity. Qed.
Example ex_doc_not_starts : starts_with_block_b ex_doc = false.  Proof. vm_compute. reflexivity. Qed.

Example gc_split_dup : split_raw (render gc_db) = Blocks (expected_dup gc_db).
Proof. apply split_render_dup, gc_db_wf. Qed.
Example gc_split_dup_computed : split_raw (render gc_db) = Blocks (expected_dup gc_db).
Proof. vm_compute. reflexivity. Qed.
Example gc_expected_dup_classes :
  map class_of (expected_dup gc_db) = [CImpl; CDupField; CEntry] /\ map class_of (expected gc_db) = [CImpl; CEntry; CEntry].
Proof. vm_compute. split; reflexivity. Qed.
Example gc_dup_wrapper : exists h e, nth 1 (expected_dup gc_db) (BImpl hdr0 []) = BDupField h [lit "t"] e
  /\ e = nth 1 (expected gc_db) (BImpl hdr0 []) /\ bhdr e = h /\ sl h = Some 2
  /\ match e with BEntry _ _ _ fs => map fkey fs = [lit "t"; lit "u"; lit "t"] | _ => False end.
Proof. do 2 eexists. repeat (split; [vm_compute; reflexivity|]). vm_compute. reflexivity. Qed.
Example gc_split_render_fails_without_nodup : split_raw (render gc_db) <> Blocks (expected gc_db).
Proof. vm_compute. discriminate. Qed.
Example gc_expected_dup_nodup : expected_dup gc_da = expected gc_da.
Proof. apply expected_dup_nodup, gc_da_nodup. Qed.

Example gc_ends_closed : md (run (render gc_da)) = Out /\ ic_rev (run (render gc_da)) = [].
Proof. apply doc_ends_closed; [exact gc_da_wf | exact gc_da_ends]. Qed.
Example gc_ends_closed_dup : md (run (render gc_db)) = Out /\ ic_rev (run (render gc_db)) = [].
Proof. apply doc_ends_closed; [exact gc_db_wf | exact gc_db_ends]. Qed.
Example gc_ends_closed_computed : md (run (render gc_db)) = Out /\ ic_rev (run (render gc_db)) = [].
Proof. vm_compute. split; reflexivity. Qed.
(* the hypothesis is needed: after ex_doc (ends in free text) the implicit comment is open *)
Example ex_doc_not_closed : ic_rev (run (render ex_doc)) <> [].
Proof. vm_compute. discriminate. Qed.
Example gc_starts : exists r, render gc_da = c_at :: r /\ at_ok r = true.
Proof. apply doc_starts_with_block; [exact gc_da_wf | exact gc_da_starts]. Qed.

(* C04: gc_x is an entry with an unterminated quoted value containing an open brace *)
Definition gc_x : str := lit "@a{k, t = ""unclosed {".
Example gc_prefix_stable : exists rest, split_raw (render gc_da ++ gc_x) = Blocks (expected gc_da ++ rest).
Proof. apply C04_doc_prefix_stable; [exact gc_da_wf | exact gc_da_nodup | exact gc_da_ends]. Qed.
Example gc_prefix_stable_computed : exists f,
  split_raw (render gc_da ++ gc_x) = Blocks (expected gc_da ++ [f]) /\ class_of f = CFailed.
Proof. eexists. split; vm_compute; reflexivity. Qed.
Example gc_prefix_stable_dup : exists rest, split_raw (render gc_db ++ gc_x) = Blocks (expected_dup gc_db ++ rest).
Proof. apply C04_doc_prefix_stable_dup; [exact gc_db_wf | exact gc_db_ends]. Qed.
Example gc_resync : exists pre,
  split_raw (gc_x ++ c_nl :: render gc_da) = Blocks (pre ++ map (shiftb (count_nl gc_x + 1)) (expected gc_da)).
Proof. apply C04_doc_resync; [exact gc_da_wf | exact gc_da_nodup | exact gc_da_starts]. Qed.
Example gc_resync_computed : exists f,
  split_raw (gc_x ++ c_nl :: render gc_da) = Blocks ([f] ++ map (shiftb 1) (expected gc_da)) /\ class_of f = CFailed
  /\ map (fun b => sl (bhdr b)) (map (shiftb 1) (expected gc_da)) = [Some 1; Some 2; Some 3; Some 4].
Proof. eexists. repeat (split; [vm_compute; reflexivity|]). vm_compute. reflexivity. Qed.
Example gc_concat : split_raw (render gc_da ++ c_nl :: render gc_da)
  = Blocks (expected gc_da ++ map (shiftb (count_nl (render gc_da) + 1)) (expected gc_da)).
Proof. apply C04_doc_concat; auto using gc_da_wf, gc_da_nodup, gc_da_ends, gc_da_starts. Qed.
Example gc_concat_dup : split_raw (render gc_db ++ c_nl :: render gc_da)
  = Blocks (expected_dup gc_db ++ map (shiftb (count_nl (render gc_db) + 1)) (expected_dup gc_da)).
Proof. apply C04_doc_concat_dup; auto using gc_db_wf, gc_db_ends, gc_da_wf, gc_da_starts. Qed.
Example gc_concat_computed :
  count_nl (render gc_db) + 1 = 4 /\
  map (fun b => sl (bhdr b)) (expected_dup gc_db ++ map (shiftb 4) (expected_dup gc_da))
  = [Some 1; Some 2; Some 3; Some 4; Some 5; Some 6; Some 7].
Proof. vm_compute. split; reflexivity. Qed.

(* C09: in gc_da the entry key k and the string name m both repeat *)
Local Close Scope Z_scope.
Example gc_expected_length : List.length (expected gc_da) = 4 /\ List.length (d_items gc_da) = 4.
Proof. split; [rewrite expected_length|]; reflexivity. Qed.
Example gc_classify : split (render gc_da) = Blocks (flag_all [] (expected gc_da)).
Proof. apply C09_doc_classify; [exact gc_da_wf | exact gc_da_nodup]. Qed.
Example gc_count : forall bs, split (render gc_da) = Blocks bs -> List.length bs = 4.
Proof. intros bs H. apply (C09_doc_count_dup gc_da gc_da_wf bs H). Qed.
Example gc_classify_classes :
  map class_of (expected gc_da) = [CEntry; CString; CEntry; CString] /\
  map class_of (flag_all [] (expected gc_da)) = [CEntry; CString; CDupKey; CDupKey].
Proof. vm_compute. split; reflexivity. Qed.
(* the flagged third block exposes the key, the FIRST entry with that key and the complete duplicate *)
Example gc_classify_third : exists h,
  nth 2 (flag_all [] (expected gc_da)) (BImpl hdr0 [])
  = BDupKey h (lit "k") (nth 0 (expected gc_da) (BImpl hdr0 [])) (nth 2 (expected gc_da) (BImpl hdr0 [])) /\ sl h = Some 2%Z.
Proof. eexists. split; vm_compute; reflexivity. Qed.
Example gc_position : forall bs, split (render gc_da) = Blocks bs ->
  nth 3 bs (BImpl hdr0 []) = flagged (firstn 3 (expected gc_da)) (nth 3 (expected gc_da) (BImpl hdr0 [])).
Proof. intros bs H. apply (C09_doc_position gc_da gc_da_wf gc_da_nodup bs 3 _ H). vm_compute. lia. Qed.
(* without nodup_fields: the duplicate-field entry is returned as such and is not registered *)
Example gc_classify_dup : split (render gc_db) = Blocks (flag_all [] (expected_dup gc_db)).
Proof. apply C09_doc_classify_dup, gc_db_wf. Qed.
Example gc_count_dup : forall bs, split (render gc_db) = Blocks bs -> List.length bs = 3.
Proof. intros bs H. apply (C09_doc_count_dup gc_db gc_db_wf bs H). Qed.
Example gc_classify_dup_classes : map class_of (flag_all [] (expected_dup gc_db)) = [CImpl; CDupField; CEntry].
Proof. vm_compute. reflexivity. Qed.
Example gc_expected_dup_ok : Forall dup_ok (expected_dup gc_db).
Proof. apply expected_dup_ok, gc_db_wf. Qed.
Print Assumptions C04_doc_prefix_stable_dup.
Print Assumptions C04_doc_resync_dup.
Print Assumptions C04_doc_concat_dup.
Print Assumptions expected_dup_nodup.

Example gc_dup_names : dup_names (FCons gc_fa (FCons gc_fb (FLast gc_fa))) = [lit "t"]
  /\ has_dup (field_names (FCons gc_fa (FCons gc_fb (FLast gc_fa)))) = true
  /\ dup_names (FCons gc_fa (FLast gc_fb)) = [].
Proof. vm_compute. repeat split; reflexivity. Qed.
Example gc_block_of_dup_spec : exists h, block_of_dup 2 gc_e3 = BDupField h [lit "t"] (block_of 2 gc_e3).
Proof. unfold gc_e3. rewrite block_of_dup_spec. vm_compute. eexists. reflexivity. Qed.

(* C11 on documents: the default parse of the render of a well-formed grammar document resolves exactly the
   bare references to the FIRST @string of that name, leaves every other field value alone, keeps the @string
   blocks as RemoveEnclosing alone leaves them, and records the resolved field names on the entry.
   Composition of: Proofs/SplitGrammar.v (split_render), Proofs/DupProofs.v (rebuild = flag_all: later @strings
   of a repeated name become duplicate wrappers, the string index holds the first), Proofs/InterpolateProofs.v
   (resolve_lib / default_stack over block lists), Proofs/PipelineTotal.v (the stack does not raise). *)
From Coq Require Import List NArith ZArith Bool Lia String.
From BP Require Import Base.Chars Model.Blocks Model.LibAdd Model.Splitter Spec.C03 Model.Grammar
  Proofs.SplitGrammar Gen.Constants Model.Enclosing Model.Interpolate Model.Pipeline Spec.C11 Spec.C09 Proofs.Common
  Proofs.LibAddProofs Proofs.EnclosingProofs Proofs.InterpolateProofs Proofs.DupProofs Proofs.PipelineTotal.
Import ListNotations.
Local Open Scope list_scope.

Notation fstr11 := Spec.C11.first_string.     (* block list -> key -> option value *)
Notation fstr09 := Spec.C09.first_string.     (* key -> block list -> option block *)

(* Library(blocks) wraps a block exactly when it is an entry or @string whose key an earlier one has; a wrapper has no
   @string key, and a block that keeps its key is kept as it is *)
Lemma string_key_flagged pre b :
  string_key (flagged pre b)
  = match string_key b with
    | Some k => match first_by string_key k pre with Some _ => None | None => Some k end
    | None => None
    end.
Proof.
  destruct b; cbn [flagged string_key]; try reflexivity; [destruct (first_entry key pre); reflexivity|].
  rewrite first_string_by. destruct (first_by string_key key pre); reflexivity.
Qed.
Lemma flagged_keeps pre b k : string_key b = Some k -> first_by string_key k pre = None -> flagged pre b = b.
Proof. destruct b; try discriminate. intros [= <-] H. cbn [flagged]. rewrite first_string_by, H. reflexivity. Qed.

Lemma fstr09_flag_all k bs : forall pre,
  fstr09 k (flag_all pre bs) = match fstr09 k pre with Some _ => None | None => fstr09 k bs end.
Proof.
  intros pre. rewrite !first_string_by. revert pre.
  induction bs as [|b bs IH]; intros pre; cbn [flag_all first_by]; [destruct (first_by string_key k pre); reflexivity|].
  rewrite string_key_flagged, IH, first_by_app. cbn [first_by].
  destruct (string_key b) as [k'|] eqn:Kb; [|destruct (first_by string_key k pre); reflexivity].
  destruct (first_by string_key k' pre) eqn:Ep.
  - (* wrapped: if k is its key, k is defined earlier *)
    destruct (first_by string_key k pre) eqn:E; [reflexivity|].
    destruct (str_eqb k k') eqn:Ek; [apply str_eqb_eq in Ek; subst; congruence | reflexivity].
  - rewrite (flagged_keeps pre b k' Kb Ep). destruct (str_eqb k k') eqn:Ek.
    + apply str_eqb_eq in Ek. subst. rewrite Ep. reflexivity.
    + destruct (first_by string_key k pre); reflexivity.
Qed.

(* the first definition of a key is the same before and after Library(blocks) has wrapped the later ones *)
Lemma fstr11_rebuild bs k : fstr11 (rebuild bs) k = fstr11 bs k.
Proof. rewrite !first_string_value, rebuild_flag_all, fstr09_flag_all. reflexivity. Qed.

Lemma Resolvable_rebuild bs f v : Resolvable (rebuild bs) f v <-> Resolvable bs f v.
Proof. unfold Resolvable. split; intros (s & A & B & C); exists s; rewrite fstr11_rebuild in *; auto. Qed.

Lemma lblocks_rebuild bs : lblocks (lib_of (rebuild bs)) = rebuild bs.
Proof. apply rebuild_lib_of. Qed.

Lemma flag_all_nth_error bs : forall pre i,
  nth_error (flag_all pre bs) i = option_map (flagged (pre ++ firstn i bs)) (nth_error bs i).
Proof.
  induction bs as [|b bs IH]; intros pre i.
  - destruct i; reflexivity.
  - destruct i as [|i]; cbn [flag_all nth_error firstn option_map].
    + rewrite app_nil_r. reflexivity.
    + rewrite IH, <- app_assoc. reflexivity.
Qed.

Lemma rebuild_nth_error bs i : nth_error (rebuild bs) i = option_map (flagged (firstn i bs)) (nth_error bs i).
Proof. rewrite rebuild_flag_all. apply (flag_all_nth_error bs [] i). Qed.

Lemma nth_error_cut {A} (l : list A) i x : nth_error l i = Some x -> l = firstn i l ++ x :: skipn (S i) l.
Proof.
  revert i. induction l as [|a l IH]; intros i H; destruct i as [|i]; try discriminate.
  - inversion H. reflexivity.
  - cbn [nth_error] in H. cbn [firstn skipn app]. f_equal. apply IH. exact H.
Qed.

Lemma live_entry_nth bs i h t k fs : NoDup (ekeys bs) -> nth_error bs i = Some (BEntry h t k fs) ->
  nth_error (rebuild bs) i = Some (BEntry h t k fs).
Proof.
  intros ND H. rewrite rebuild_nth_error, H. cbn [option_map flagged].
  assert (E : first_entry k (firstn i bs) = None).
  { apply first_entry_none. intros h' t' f' Hin.
    rewrite (nth_error_cut bs i _ H) in ND. rewrite ekeys_app in ND. cbn [ekeys flat_map ekey app] in ND.
    apply NoDup_remove_2 in ND. apply ND. apply in_or_app. left.
    unfold ekeys. apply in_flat_map. exists (BEntry h' t' k f'). split; [exact Hin | left; reflexivity]. }
  rewrite E. reflexivity.
Qed.

(* the middleware has recorded the field name n among the resolved ones: parser_metadata["ResolveStringReferences"] *)
Definition listed (h : hdr) (n : str) : Prop :=
  exists l, dict_get (meta h) resolve_meta_key = Some (VList l) /\ In (VStr n) l.

Lemma in_map_VStr n ks : In (VStr n) (map VStr ks) <-> In n ks.
Proof.
  split; [|apply in_map]. intros H. apply in_map_iff in H. destruct H as (x & E & Hx). inversion E. subst. exact Hx.
Qed.

Lemma listed_iff h ks md n : dict_get (meta h) resolve_meta_key = None ->
  (listed (set_meta (resolved_hdr h ks) remove_enclosing_metadata_key md) n <-> In n ks).
Proof.
  intros H0. unfold listed, set_meta. cbn [meta]. rewrite dict_get_set_other by discriminate.
  unfold resolved_hdr. destruct ks as [|k0 ks].
  - rewrite H0. split; [intros (l & E & _); discriminate | intros []].
  - unfold set_meta. cbn [meta]. rewrite dict_get_set_same. split.
    + intros (l & E & Hin). inversion E. subst. apply in_map_VStr. exact Hin.
    + intros Hin. eexists. split; [reflexivity|]. apply in_map_VStr. exact Hin.
Qed.

(* [bs] are the splitter's blocks in source order (split_raw); the library is Library(bs) = rebuild bs *)
Theorem stack_other bs out i b :
  default_stack (rebuild bs) = Enclosing.Val out -> nth_error (rebuild bs) i = Some b -> is_entry b = false ->
  exists b', remove_block b = Enclosing.Val b' /\ nth_error out i = Some b'.
Proof. intros H Hi. rewrite <- lblocks_rebuild in Hi. exact (default_stack_other _ _ _ _ H Hi). Qed.

Fixpoint gfield_list (fs : gfields) : list gfield :=
  match fs with FEnd _ => [] | FLast f => [f] | FCons f r => f :: gfield_list r end.
Definition etail_fields (t : etail) : list gfield := match t with ENoComma => [] | EComma fs => gfield_list fs end.

Fixpoint entry_keys (l : list (item * str)) : list str :=
  match l with
  | [] => []
  | (IEntry _ _ _ key _ _, _) :: r => key :: entry_keys r
  | _ :: r => entry_keys r
  end.
(* entry keys pairwise distinct (every entry is live); @string names may repeat *)
Definition distinct_keys_b (d : doc) : bool := negb (has_dup (entry_keys (d_items d))).
Definition distinct_keys (d : doc) : Prop := distinct_keys_b d = true.

(* the value AST of the FIRST @string item with name k *)
Fixpoint first_gstring (l : list (item * str)) (k : str) : option gvalue :=
  match l with
  | [] => None
  | (IString _ _ _ name _ _ v _, _) :: r => if str_eqb k name then Some v else first_gstring r k
  | _ :: r => first_gstring r k
  end.

Lemma exp_items_nth l : forall ln i it g, nth_error l i = Some (it, g) ->
  exists ln', nth_error (exp_items ln l) i = Some (block_of ln' it).
Proof.
  induction l as [|[it0 g0] l IH]; intros ln i it g H; destruct i as [|i]; try discriminate.
  - inversion H. subst. exists ln. reflexivity.
  - cbn [nth_error] in H. cbn [exp_items nth_error]. exact (IH _ i it g H).
Qed.

Lemma exp_items_length l : forall ln, List.length (exp_items ln l) = List.length l.
Proof. induction l as [|[it g] l IH]; intros ln; cbn; [reflexivity | rewrite IH; reflexivity]. Qed.

Lemma exp_items_firstn l : forall ln i, firstn i (exp_items ln l) = exp_items ln (firstn i l).
Proof.
  induction l as [|[it g] l IH]; intros ln i; destruct i as [|i]; try reflexivity.
  cbn [exp_items firstn]. rewrite IH. reflexivity.
Qed.

Lemma exp_items_ekeys l : forall ln, ekeys (exp_items ln l) = entry_keys l.
Proof.
  induction l as [|[it g] l IH]; intros ln; [reflexivity|].
  cbn [exp_items]. change (ekeys (?b :: ?r)) with (ekey b ++ ekeys r). rewrite IH.
  destruct it; reflexivity.
Qed.

Lemma exp_items_fstr09 l k : forall ln,
  match first_gstring l k with
  | None => fstr09 k (exp_items ln l) = None
  | Some v0 => exists hp, fstr09 k (exp_items ln l) = Some (BString hp k (VStr (render_value v0)))
  end.
Proof.
  induction l as [|[it g] l IH]; intros ln; [reflexivity|].
  cbn [exp_items]. destruct it; cbn [block_of Spec.C09.first_string first_gstring]; try apply IH.
  destruct (str_eqb k name) eqn:E; [|apply IH]. apply str_eqb_eq in E. subst. eexists. reflexivity.
Qed.

Lemma exp_items_first_string l k ln :
  fstr11 (exp_items ln l) k = option_map (fun v => VStr (render_value v)) (first_gstring l k).
Proof.
  rewrite first_string_value. pose proof (exp_items_fstr09 l k ln) as Q.
  destruct (first_gstring l k); [destruct Q as [hp ->] | rewrite Q]; reflexivity.
Qed.

Lemma exp_fields_keys fs : forall ln, map fkey (exp_fields ln fs) = field_names fs.
Proof. induction fs as [w|f|f r IH]; intros ln; cbn; [reflexivity | reflexivity | rewrite IH; reflexivity]. Qed.

Lemma field_names_list fs : field_names fs = map g_name (gfield_list fs).
Proof. induction fs as [w|f|f r IH]; cbn; [reflexivity | reflexivity | rewrite IH; reflexivity]. Qed.

Lemma exp_fields_nth fs : forall ln j f, nth_error (gfield_list fs) j = Some f ->
  exists ln', nth_error (exp_fields ln fs) j = Some (exp_field ln' f).
Proof.
  induction fs as [w|f0|f0 r IH]; intros ln j f H.
  - destruct j; discriminate.
  - destruct j as [|j]; [|destruct j; discriminate]. inversion H. subst. exists ln. reflexivity.
  - destruct j as [|j].
    + inversion H. subst. exists ln. reflexivity.
    + cbn [gfield_list nth_error] in H. cbn [exp_fields nth_error]. exact (IH _ j f H).
Qed.

Lemma fresh_all_NoDup l : forall seen, fresh_all seen l = true -> NoDup l /\ forall x, In x l -> ~ In x seen.
Proof.
  induction l as [|x l IH]; intros seen H.
  - split; [constructor | intros x []].
  - cbn [fresh_all] in H. apply andb_true_iff in H as [H1 H2]. destruct (IH _ H2) as [ND Hs].
    apply negb_true_iff in H1. split.
    + constructor; [|exact ND]. intros Hin. apply (Hs x Hin). left. reflexivity.
    + intros y [<-|Hy].
      * intros Hin. apply mem_str_In in Hin. congruence.
      * intros Hin. apply (Hs y Hy). right. exact Hin.
Qed.

Lemma wf_items_In l : forall pf it g, wf_items pf l = true -> In (it, g) l -> wf_item it = true.
Proof.
  induction l as [|[it0 g0] l IH]; intros pf it g H Hin; [destruct Hin|].
  cbn [wf_items] in H. repeat (apply andb_true_iff in H as [H ?]).
  destruct Hin as [E|Hin]; [inversion E; subst; assumption | eapply IH; eassumption].
Qed.

Lemma wf_fields_In fs f : wf_fields fs = true -> In f (gfield_list fs) -> wf_field f = true.
Proof.
  induction fs as [w|f0|f0 r IH]; cbn [wf_fields gfield_list]; intros H Hin.
  - destruct Hin.
  - destruct Hin as [<-|[]]. exact H.
  - apply andb_true_iff in H as [H1 H2]. destruct Hin as [<-|Hin]; [exact H1 | exact (IH H2 Hin)].
Qed.

Lemma name_not_starts s : name_ok s = true -> ~ (starts s c_lb \/ starts s c_quote).
Proof.
  unfold name_ok. intros H. apply andb_true_iff in H as [_ H].
  intros [[r ->]|[r ->]]; cbn [kchars] in H; repeat (apply andb_true_iff in H as [H ?]); discriminate.
Qed.

Lemma name_not_enclosed s : name_ok s = true -> ~ enclosed s.
Proof. intros H [[S _]|[S _]]; apply (name_not_starts s H); auto. Qed.

(* field j is named n and its value is the str c (on whatever line) *)
Definition holds (fs : list field) (j : nat) (n c : str) : Prop :=
  exists fl, nth_error fs j = Some (mkfield n (VStr c) fl).

Lemma split_doc d : wf_doc d -> nodup_fields d -> split (render d) = Blocks (rebuild (expected d)).
Proof. intros W N. unfold split. rewrite (split_render d W N). reflexivity. Qed.

Lemma parse_doc d : wf_doc d -> nodup_fields d ->
  exists out, default_stack (rebuild (expected d)) = Enclosing.Val out /\ parse_default (render d) = PVal out
              /\ List.length out = List.length (d_items d).
Proof.
  intros W N. pose proof (split_doc d W N) as S.
  destruct (default_stack_total _ (split_good _ _ S)) as (out & E & _ & L).
  exists out. split; [exact E|]. split.
  - unfold parse_default. rewrite S, E. reflexivity.
  - rewrite L, PipelineTotal.rebuild_length. apply exp_items_length.
Qed.

Lemma entry_block_fields ln typ hws w1 key w2 t :
  exists efs, block_of ln (IEntry typ hws w1 key w2 t)
              = BEntry (mkhdr (Some ln) (Some (render_item (IEntry typ hws w1 key w2 t))) []) (lower typ) key efs
    /\ map fkey efs = map g_name (etail_fields t)
    /\ forall j f, nth_error (etail_fields t) j = Some f -> exists ln', nth_error efs j = Some (exp_field ln' f).
Proof.
  destruct t as [|fs]; eexists; (split; [reflexivity|]); cbn [etail_fields].
  - split; [reflexivity | intros [|j] f H; discriminate].
  - split; [rewrite exp_fields_keys; apply field_names_list | intros j f H; eapply exp_fields_nth; exact H].
Qed.

Lemma doc_field_wf d typ hws w1 key w2 t g f : wf_doc d ->
  In (IEntry typ hws w1 key w2 t, g) (d_items d) -> In f (etail_fields t) -> wf_value (g_val f) = true.
Proof.
  intros W Hin Hf. unfold wf_doc, wf_doc_b in W. apply andb_true_iff in W as [_ W].
  pose proof (wf_items_In _ _ _ _ W Hin) as Wi. unfold wf_item in Wi.
  repeat (apply andb_true_iff in Wi as [Wi ?]). destruct t as [|fs]; [destruct Hf|].
  cbn [wf_etail etail_fields] in *. assert (Wf : wf_field f = true) by (eapply wf_fields_In; eassumption).
  unfold wf_field in Wf. repeat (apply andb_true_iff in Wf as [Wf ?]). assumption.
Qed.

Lemma render_single p : render_value (mkgv p []) = render_piece p.
Proof. apply app_nil_r. Qed.

(* what the resolver does with a field of a document: it looks at the source text of the value *)
Lemma Resolvable_doc d ln f v : Resolvable (rebuild (expected d)) (exp_field ln f) v <->
  ~ enclosed (render_value (g_val f))
  /\ option_map (fun sv => VStr (render_value sv)) (first_gstring (d_items d) (render_value (g_val f))) = Some v.
Proof.
  rewrite Resolvable_rebuild. unfold Resolvable, expected, exp_field. cbn [fval]. split.
  - intros (s & [= <-] & Hne & Hf). rewrite exp_items_first_string in Hf. auto.
  - intros [Hne Hf]. eexists. rewrite exp_items_first_string. auto.
Qed.

(* an entry item of a document with distinct keys is a live entry of the library, at the same position, with the
   fields of the item, whose names are distinct *)
Lemma doc_entry_live d i typ hws w1 key w2 t g : nodup_fields d -> distinct_keys d ->
  nth_error (d_items d) i = Some (IEntry typ hws w1 key w2 t, g) ->
  exists ln efs,
    nth_error (lblocks (lib_of (rebuild (expected d)))) i
    = Some (BEntry (mkhdr (Some ln) (Some (render_item (IEntry typ hws w1 key w2 t))) []) (lower typ) key efs)
    /\ map fkey efs = map g_name (etail_fields t) /\ NoDup (map fkey efs)
    /\ forall j f, nth_error (etail_fields t) j = Some f -> exists ln', nth_error efs j = Some (exp_field ln' f).
Proof.
  intros N K Hi. destruct (exp_items_nth _ (count_nl (d_gap0 d)) i _ g Hi) as (ln & HE). fold (expected d) in HE.
  destruct (entry_block_fields ln typ hws w1 key w2 t) as (efs & EB & EK & EN). rewrite EB in HE.
  exists ln, efs. split; [|split; [exact EK | split; [|exact EN]]].
  - rewrite lblocks_rebuild. apply live_entry_nth; [|exact HE].
    unfold expected. rewrite exp_items_ekeys. apply has_dup_false_NoDup, negb_true_iff, K.
  - rewrite EK. pose proof (proj1 (forallb_forall _ _) N _ (nth_error_In _ _ Hi)) as Q. cbn [fst] in Q.
    destruct t as [|fs]; [constructor|]. cbn [nodup_item] in Q. cbn [etail_fields].
    rewrite <- field_names_list. exact (proj1 (fresh_all_NoDup _ _ Q)).
Qed.

Theorem C11_doc_fields : forall d, wf_doc d -> nodup_fields d -> distinct_keys d ->
  exists out, parse_default (render d) = PVal out /\ List.length out = List.length (d_items d) /\
  forall i typ hws w1 key w2 t g, nth_error (d_items d) i = Some (IEntry typ hws w1 key w2 t, g) ->
    exists h' fs', nth_error out i = Some (BEntry h' (lower typ) key fs')
      /\ raw h' = Some (render_item (IEntry typ hws w1 key w2 t))
      /\ map fkey fs' = map g_name (etail_fields t)
      /\ forall j f, nth_error (etail_fields t) j = Some f ->
         (* (i) a bare piece naming an @string: the content of the FIRST such @string, and the field is listed *)
         (forall s sv, g_val f = mkgv (PBare s) [] -> first_gstring (d_items d) s = Some sv ->
            holds fs' j (g_name f) (fst (strip_enclosing (render_value sv))) /\ listed h' (g_name f))
         (* (ii) enclosed as the resolver sees it, or the whole source text names no @string: own content, not listed *)
         /\ (enclosed (render_value (g_val f)) \/ first_gstring (d_items d) (render_value (g_val f)) = None ->
            holds fs' j (g_name f) (fst (strip_enclosing (render_value (g_val f)))) /\ ~ listed h' (g_name f)).
Proof.
  intros d W N K. destruct (parse_doc d W N) as (out & DS & PD & L).
  exists out. split; [exact PD|]. split; [exact L|].
  intros i typ hws w1 key w2 t g Hi.
  destruct (doc_entry_live d i typ hws w1 key w2 t g N K Hi) as (ln & efs & HF & EK & NF & EN).
  destruct (default_stack_entry _ _ _ _ _ _ _ DS HF) as (fs1 & ks & fs' & md & RF & F & HO).
  eexists. exists fs'. split; [exact HO|]. split; [exact (proj2 (resolved_hdr_frame _ ks))|].
  split; [rewrite (proj1 (stripped_field_keys _ _ F)), (proj1 (res_fields_keys _ _ _ _ RF)); exact EK|].
  intros j f Hj. destruct (EN j f Hj) as (ln' & Hef).
  destruct (resolved_stripped_at _ _ _ _ _ RF F j _ Hef) as [Hit Hmiss].
  split.
  - intros s sv Ev Hs. destruct (Hit (render_value sv)) as [A B].
    + apply Resolvable_doc. rewrite Ev, render_single. cbn [render_piece]. rewrite Hs. split; [|reflexivity].
      (* a bare piece is a name, and a name starts with no delimiter *)
      pose proof (doc_field_wf d _ _ _ _ _ _ g f W (nth_error_In _ _ Hi) (nth_error_In _ _ Hj)) as Wv.
      rewrite Ev in Wv. apply name_not_enclosed. unfold wf_value in Wv. cbn [v_first wf_piece] in Wv.
      apply andb_true_iff in Wv as [Wv _]. apply andb_true_iff in Wv as [Wv _]. exact Wv.
    + split; [eexists; exact A | apply listed_iff; [reflexivity | exact B]].
  - intros Hc. destruct (Hmiss _ eq_refl) as [A B].
    + intros v R. apply Resolvable_doc in R as [Hne Hf].
      destruct Hc as [Hc|Hc]; [exact (Hne Hc) | rewrite Hc in Hf; discriminate].
    + split; [eexists; exact A | rewrite listed_iff by reflexivity; exact (B NF)].
Qed.
Print Assumptions C11_doc_fields.

Fixpoint string_names (l : list (item * str)) : list str :=
  match l with
  | [] => []
  | (IString _ _ _ name _ _ _ _, _) :: r => name :: string_names r
  | _ :: r => string_names r
  end.
Definition no_hash (s : str) : bool := forallb (fun c => negb (c =? c_hash)%N) s.
(* no @string name contains '#' *)
Definition hash_free_b (d : doc) : bool := forallb no_hash (string_names (d_items d)).

Lemma first_gstring_notin l k : ~ In k (string_names l) -> first_gstring l k = None.
Proof.
  induction l as [|[it g] l IH]; [reflexivity|]. destruct it; cbn [first_gstring string_names]; try exact IH.
  intros H. destruct (str_eqb k name) eqn:E; [apply str_eqb_eq in E; destruct H; left; symmetry; exact E|].
  apply IH. intros Hn. apply H. right. exact Hn.
Qed.

Lemma string_names_ok d n : wf_doc d -> In n (string_names (d_items d)) -> name_ok n = true.
Proof.
  unfold wf_doc, wf_doc_b. intros W. apply andb_true_iff in W as [_ W]. revert W. generalize false.
  induction (d_items d) as [|[it g] l IH]; intros pf W Hin; [destruct Hin|].
  cbn [wf_items] in W. repeat (apply andb_true_iff in W as [W ?]).
  destruct it; cbn [string_names] in Hin; try (eapply IH; eassumption).
  destruct Hin as [<-|Hin]; [|eapply IH; eassumption].
  unfold wf_item in W. repeat (apply andb_true_iff in W as [W ?]). assumption.
Qed.

(* a text that is no name is the name of no @string *)
Lemma no_name d src : wf_doc d -> name_ok src <> true -> first_gstring (d_items d) src = None.
Proof. intros W H. apply first_gstring_notin. intros Hn. exact (H (string_names_ok d src W Hn)). Qed.

Lemma no_name_hash d src : hash_free_b d = true -> In c_hash src -> first_gstring (d_items d) src = None.
Proof.
  intros H Hin. apply first_gstring_notin. intros Hn. unfold hash_free_b in H. rewrite forallb_forall in H.
  specialize (H _ Hn). unfold no_hash in H. rewrite forallb_forall in H. specialize (H _ Hin). discriminate.
Qed.

Lemma no_name_space d src c : wf_doc d -> In c src -> isspace c = true -> first_gstring (d_items d) src = None.
Proof.
  intros W Hin Hc. apply (no_name d src W). unfold name_ok. intros H. apply andb_true_iff in H as [_ H].
  apply kchars_nospace in H. rewrite forallb_forall in H. specialize (H c Hin). rewrite Hc in H. discriminate.
Qed.

Lemma no_name_starts d src : wf_doc d -> starts src c_lb \/ starts src c_quote -> first_gstring (d_items d) src = None.
Proof. intros W He. apply (no_name d src W). intros H. exact (name_not_starts _ H He). Qed.

Lemma no_name_delim d src : wf_doc d -> enclosed src -> first_gstring (d_items d) src = None.
Proof. intros W [[S _]|[S _]]; apply (no_name_starts d src W); auto. Qed.

(* the values the property says are left alone: one braced piece, one quoted piece, a bare piece naming no
   @string, a concatenation (whose text is not itself an @string name: see C11_concat_refuted below) *)
Inductive untouched (d : doc) : gvalue -> Prop :=
| U_braced b : untouched d (mkgv (PBraced b) [])
| U_quoted q : untouched d (mkgv (PQuoted q) [])
| U_undefined s : first_gstring (d_items d) s = None -> untouched d (mkgv (PBare s) [])
| U_concat p m : m <> [] ->
    (hash_free_b d = true                                   (* no @string name contains '#' *)
     \/ (forall s, p <> PBare s)                            (* the first piece is enclosed *)
     \/ (exists a b p' r, m = (a, b, p') :: r /\ a <> [])) (* white space before the first '#' *)
    -> untouched d (mkgv p m).

Lemma untouched_ok d gv : wf_doc d -> wf_value gv = true -> untouched d gv ->
  enclosed (render_value gv) \/ first_gstring (d_items d) (render_value gv) = None.
Proof.
  intros W Wv U. destruct U as [b|q|s Hs|p m Hm Hc].
  - left. right. rewrite render_single. split; [eexists; reflexivity | exists (c_lb :: render_braced b); reflexivity].
  - left. left. rewrite render_single. split; [eexists; reflexivity | exists (c_quote :: render_quoted q); reflexivity].
  - right. rewrite render_single. exact Hs.
  - right. destruct Hc as [Hh|[Hp|(a & b & p' & r & -> & Ha)]].
    + apply no_name_hash; [exact Hh|]. destruct m as [|[[a b] p'] r]; [contradiction|].
      unfold render_value. cbn [v_more render_more]. apply in_or_app. right. apply in_or_app. right. left. reflexivity.
    + apply no_name_starts; [exact W|]. unfold render_value. cbn [v_first v_more].
      destruct p as [s|b|q]; [exfalso; exact (Hp s eq_refl) | left; eexists; reflexivity | right; eexists; reflexivity].
    + destruct a as [|c a]; [contradiction|].
      unfold wf_value in Wv. cbn [v_first v_more wf_more] in Wv. apply andb_true_iff in Wv as [_ Wv].
      repeat (apply andb_true_iff in Wv as [Wv _]). pose proof (Wv : isspace c = true) as Hc.
      apply (no_name_space d _ c W); [|exact Hc].
      unfold render_value. cbn [v_first v_more render_more]. apply in_or_app. right. left. reflexivity.
Qed.

Theorem C11_doc_strings : forall d, wf_doc d -> nodup_fields d ->
  exists out, parse_default (render d) = PVal out /\ List.length out = List.length (d_items d)
  (* block level: everything that is no live entry is exactly what RemoveEnclosing alone makes of the split's block *)
  /\ split (render d) = Blocks (rebuild (expected d))
  /\ (forall i b, nth_error (rebuild (expected d)) i = Some b -> is_entry b = false ->
        exists b', remove_block b = Enclosing.Val b' /\ nth_error out i = Some b')
  (* document level *)
  /\ forall i kw hws w1 name w2 w3 v w4 g,
       nth_error (d_items d) i = Some (IString kw hws w1 name w2 w3 v w4, g) ->
       let it := IString kw hws w1 name w2 w3 v w4 in
       (* the first @string of its name: same position, same key, its own content, only the enclosing removed *)
       (first_gstring (firstn i (d_items d)) name = None ->
          exists ln, nth_error out i =
            Some (BString (mkhdr (Some ln) (Some (render_item it))
                             [(remove_enclosing_metadata_key, VStr (snd (strip_enclosing (render_value v))))])
                    name (VStr (fst (strip_enclosing (render_value v))))))
       (* a later @string of a repeated name: the duplicate wrapper of the split, untouched *)
       /\ (forall v0, first_gstring (firstn i (d_items d)) name = Some v0 ->
          exists ln hp, nth_error out i =
            Some (BDupKey (mkhdr (Some ln) (Some (render_item it)) []) name
                    (BString hp name (VStr (render_value v0)))
                    (BString (mkhdr (Some ln) (Some (render_item it)) []) name (VStr (render_value v))))).
Proof.
  intros d W N. destruct (parse_doc d W N) as (out & DS & PD & L).
  exists out. split; [exact PD|]. split; [exact L|]. split; [exact (split_doc d W N)|]. split.
  - intros i b Hi Hb. exact (stack_other _ _ _ _ DS Hi Hb).
  - intros i kw hws w1 name w2 w3 v w4 g Hi it.
    destruct (exp_items_nth _ (count_nl (d_gap0 d)) i it g Hi) as (ln & HE). fold (expected d) in HE.
    pose proof (rebuild_nth_error (expected d) i) as HR. rewrite HE in HR. cbn [option_map block_of it flagged] in HR.
    unfold expected in HR at 2. rewrite exp_items_firstn in HR.
    pose proof (exp_items_fstr09 (firstn i (d_items d)) name (count_nl (d_gap0 d))) as Q.
    split.
    + intros H0. rewrite H0 in Q. rewrite Q in HR.
      destruct (stack_other _ _ _ _ DS HR eq_refl) as (b' & Rb & Ho).
      cbn [remove_block strip_value] in Rb. destruct (strip_enclosing (render_value v)) as [c e].
      inversion Rb. subst b'. exists ln. exact Ho.
    + intros v0 H0. rewrite H0 in Q. destruct Q as (hp & Q). rewrite Q in HR.
      destruct (stack_other _ _ _ _ DS HR eq_refl) as (b' & Rb & Ho).
      cbn [remove_block] in Rb. inversion Rb. subst b'. exists ln, hp. exact Ho.
Qed.
Print Assumptions C11_doc_strings.

Theorem C11_doc_untouched : forall d, wf_doc d -> nodup_fields d -> distinct_keys d ->
  exists out, parse_default (render d) = PVal out /\
  forall i typ hws w1 key w2 t g, nth_error (d_items d) i = Some (IEntry typ hws w1 key w2 t, g) ->
    exists h' fs', nth_error out i = Some (BEntry h' (lower typ) key fs')
      /\ forall j f, nth_error (etail_fields t) j = Some f -> untouched d (g_val f) ->
           holds fs' j (g_name f) (fst (strip_enclosing (render_value (g_val f)))) /\ ~ listed h' (g_name f).
Proof.
  intros d W N K. destruct (C11_doc_fields d W N K) as (out & PD & _ & H).
  exists out. split; [exact PD|]. intros i typ hws w1 key w2 t g Hi.
  destruct (H i typ hws w1 key w2 t g Hi) as (h' & fs' & HO & _ & _ & HF).
  exists h', fs'. split; [exact HO|]. intros j f Hj U.
  apply (proj2 (HF j f Hj)). apply untouched_ok; [exact W | | exact U].
  eapply doc_field_wf; [exact W | eapply nth_error_In; exact Hi | eapply nth_error_In; exact Hj].
Qed.
Print Assumptions C11_doc_untouched.

(* The restriction on concatenations is needed: '#' is a key character, so an @string may be NAMED a#b, and then the
   field value a#b (grammatically the concatenation of the bare pieces a and b) is the bare text of a defined key
   and is resolved. *)
Definition cx_doc : doc :=
  mkdoc []
    [ (IString (lit "string") [] [] (lit "a#b") (lit " ") (lit " ") (mkgv (PQuoted (qs_ (lit "X") QNil)) []) [], lit " ");
      (IEntry (lit "article") [] [] (lit "k") []
         (EComma (FLast (mkgf (lit " ") (lit "t") (lit " ") (lit " ")
                           (mkgv (PBare (lit "a")) [([], [], PBare (lit "b"))]) []))), []) ].
Theorem C11_concat_refuted :
  render cx_doc = lit "@string{a#b = ""X""} @article{k, t = a#b}"
  /\ wf_doc cx_doc /\ nodup_fields cx_doc /\ distinct_keys cx_doc /\ hash_free_b cx_doc = false
  /\ match parse_default (render cx_doc) with
     | PVal [_; BEntry h _ _ [f]] => fval f = VStr (lit "X") /\ dict_get (meta h) resolve_meta_key = Some (VList [VStr (lit "t")])
     | _ => False
     end.
Proof.
  split; [vm_compute; reflexivity|]. split; [vm_compute; reflexivity|]. split; [vm_compute; reflexivity|].
  split; [vm_compute; reflexivity|]. split; [vm_compute; reflexivity|].
  vm_compute. split; reflexivity.
Qed.
Print Assumptions C11_concat_refuted.

Definition bare (s : string) : gvalue := mkgv (PBare (lit s)) [].
Definition fld (n : string) (v : gvalue) : gfield := mkgf (lit " ") (lit n) (lit " ") (lit " ") v [].
Definition ex11 : doc :=
  mkdoc []
    [ (IString (lit "string") [] [] (lit "jan") (lit " ") (lit " ") (mkgv (PQuoted (qs_ (lit "January") QNil)) []) [], lit " ");
      (IString (lit "string") [] [] (lit "jan") (lit " ") (lit " ") (mkgv (PBraced (bs_ (lit "X") BNil)) []) [], lit " ");
      (IEntry (lit "article") [] [] (lit "k") []
         (EComma (FCons (fld "month" (bare "jan"))
                 (FCons (fld "a" (mkgv (PBraced (bs_ (lit "jan") BNil)) []))
                 (FCons (fld "b" (mkgv (PQuoted (qs_ (lit "jan") QNil)) []))
                 (FCons (fld "c" (mkgv (PBare (lit "jan")) [(lit " ", lit " ", PBare (lit "jan"))]))
                 (FCons (fld "d" (bare "JAN"))
                 (FLast (fld "e" (bare "feb"))))))))), []) ].
Example ex11_render : render ex11 =
  lit "@string{jan = ""January""} @string{jan = {X}} @article{k, month = jan, a = {jan}, b = ""jan"", c = jan # jan, d = JAN, e = feb}".
Proof. vm_compute. reflexivity. Qed.
Example ex11_wf : wf_doc ex11.                Proof. vm_compute. reflexivity. Qed.
Example ex11_nodup : nodup_fields ex11.       Proof. vm_compute. reflexivity. Qed.
Example ex11_keys : distinct_keys ex11.       Proof. vm_compute. reflexivity. Qed.
Example ex11_hash_free : hash_free_b ex11 = true.  Proof. vm_compute. reflexivity. Qed.

Definition field_view (f : field) : str * value := (fkey f, fval f).
Example ex11_computed :
  match parse_default (render ex11) with
  | PVal [BString h1 k1 v1; BDupKey _ k2 (BString _ _ p2) (BString _ _ v2); BEntry h _ _ fs] =>
      (k1, v1) = (lit "jan", VStr (lit "January"))
      /\ dict_get (meta h1) remove_enclosing_metadata_key = Some (VStr [c_quote])
      /\ (k2, p2, v2) = (lit "jan", VStr (lit """January"""), VStr (lit "{X}"))
      /\ map field_view fs = [ (lit "month", VStr (lit "January")); (lit "a", VStr (lit "jan")); (lit "b", VStr (lit "jan"));
                               (lit "c", VStr (lit "jan # jan")); (lit "d", VStr (lit "JAN")); (lit "e", VStr (lit "feb")) ]
      /\ dict_get (meta h) resolve_meta_key = Some (VList [VStr (lit "month")])
  | _ => False
  end.
Proof. vm_compute. repeat split. Qed.

(* the same facts obtained from the theorems (hypotheses checked by computation, conclusions instantiated) *)
(* an instance R of a theorem and the goal say the same once the literals in both are evaluated *)
Ltac by_eval R := vm_compute in R |- *; exact R.
Example ex11_by_theorem :
  exists out h' fs', parse_default (render ex11) = PVal out
    /\ nth_error out 2 = Some (BEntry h' (lit "article") (lit "k") fs')
    /\ (holds fs' 0 (lit "month") (lit "January") /\ listed h' (lit "month"))       (* first definition, not {X} *)
    /\ (holds fs' 1 (lit "a") (lit "jan") /\ ~ listed h' (lit "a"))                 (* {jan} *)
    /\ (holds fs' 2 (lit "b") (lit "jan") /\ ~ listed h' (lit "b"))                 (* "jan" *)
    /\ (holds fs' 3 (lit "c") (lit "jan # jan") /\ ~ listed h' (lit "c"))           (* concatenation *)
    /\ (holds fs' 4 (lit "d") (lit "JAN") /\ ~ listed h' (lit "d"))                 (* other case *)
    /\ (holds fs' 5 (lit "e") (lit "feb") /\ ~ listed h' (lit "e")).                (* undefined *)
Proof.
  destruct (C11_doc_fields ex11 ex11_wf ex11_nodup ex11_keys) as (out & PD & _ & H).
  edestruct (H 2%nat) as (h' & fs' & HO & _ & _ & HF); [reflexivity|].
  exists out, h', fs'. split; [exact PD|]. split; [by_eval HO|].
  (* the fields left alone: by case (ii), through [untouched_ok] *)
  pose proof (fun j f Hj Uf => proj2 (HF j f Hj) (untouched_ok ex11 (g_val f) ex11_wf
    (doc_field_wf ex11 _ _ _ _ _ _ _ f ex11_wf (or_intror (or_intror (or_introl eq_refl))) (nth_error_In _ _ Hj)) Uf)) as U.
  split.
  - destruct (HF 0%nat _ eq_refl) as [Hi _].
    pose proof (Hi (lit "jan") (mkgv (PQuoted (qs_ (lit "January") QNil)) []) eq_refl eq_refl) as R. by_eval R.
  - split; [pose proof (U 1%nat _ eq_refl (U_braced _ _)) as R; by_eval R|].
    split; [pose proof (U 2%nat _ eq_refl (U_quoted _ _)) as R; by_eval R|].
    assert (U3 : untouched ex11 (mkgv (PBare (lit "jan")) [(lit " ", lit " ", PBare (lit "jan"))]))
      by (apply U_concat; [discriminate | left; exact ex11_hash_free]).
    assert (U4 : untouched ex11 (bare "JAN")) by (apply U_undefined; vm_compute; reflexivity).
    assert (U5 : untouched ex11 (bare "feb")) by (apply U_undefined; vm_compute; reflexivity).
    split; [pose proof (U 3%nat _ eq_refl U3) as R; by_eval R|].
    split; [pose proof (U 4%nat _ eq_refl U4) as R; by_eval R|].
    pose proof (U 5%nat _ eq_refl U5) as R. by_eval R.
Qed.

Example ex11_strings_by_theorem :
  exists out ln1 ln2 hp, parse_default (render ex11) = PVal out
    /\ nth_error out 0 = Some (BString (mkhdr (Some ln1) (Some (lit "@string{jan = ""January""}"))
                                          [(remove_enclosing_metadata_key, VStr [c_quote])]) (lit "jan") (VStr (lit "January")))
    /\ nth_error out 1 = Some (BDupKey (mkhdr (Some ln2) (Some (lit "@string{jan = {X}}")) []) (lit "jan")
                                 (BString hp (lit "jan") (VStr (lit """January""")))
                                 (BString (mkhdr (Some ln2) (Some (lit "@string{jan = {X}}")) []) (lit "jan") (VStr (lit "{X}")))).
Proof.
  destruct (C11_doc_strings ex11 ex11_wf ex11_nodup) as (out & PD & _ & _ & _ & H).
  edestruct (H 0%nat) as [H0 _]; [reflexivity|]. destruct (H0 eq_refl) as (ln1 & E1).
  edestruct (H 1%nat) as [_ H1]; [reflexivity|]. destruct (H1 _ ltac:(vm_compute; reflexivity)) as (ln2 & hp & E2).
  exists out, ln1, ln2, hp. split; [exact PD|]. split; [by_eval E1 | by_eval E2].
Qed.

(* C14, the loop through writer and parser (Spec/C14Stack.v): the text MergeNameParts + MergeCoAuthors produce is
   written by the default write stack as one braced field value and read back by the default parse stack as exactly
   that text, which SeparateCoAuthors + SplitNameParts split into the same persons (list-level law of C14).
   Composition of: Proofs/RoundTrip4-7 (the writer's output on a clean library is a well-formed document of the
   grammar, which the splitter and the default stack read back with the same content: C05/C10),
   Proofs/NamesListProofs (list_inverse_except_known) and Proofs/NamesStackProofs (the middleware on one field).
   Nothing about the splitter is re-proved here. *)
From Coq Require Import String List NArith ZArith Bool Lia.
From BP Require Import Base.Chars Model.Blocks Gen.Constants Model.Enclosing Model.Writer Model.Grammar
  Model.Pipeline Model.Names Spec.C05 Spec.C14 Spec.C14Stack Proofs.LibAddProofs Proofs.RoundTrip Proofs.RoundTrip2
  Proofs.RoundTrip3 Proofs.RoundTrip4 Proofs.RoundTrip5 Proofs.RoundTrip6 Proofs.RoundTrip7 Proofs.NamesStackProofs
  Proofs.NamesListProofs Proofs.NamesBraceProofs.
Import ListNotations.

Lemma bscan_shift s : forall pb d pb' d' e, bscan pb d s = Some (pb', d') -> bscan pb (d + e) s = Some (pb', d' + e).
Proof.
  induction s as [|c s IH]; intros pb d pb' d' e H; cbn [bscan] in *.
  - inversion H; subst. reflexivity.
  - destruct (negb pb && (c =? c_lb)%N); [exact (IH false (S d) _ _ e H)|].
    destruct (negb pb && (c =? c_rb)%N); [|exact (IH _ _ _ _ e H)].
    destruct d as [|d0]; [discriminate|]. cbn [Nat.add]. exact (IH _ _ _ _ e H).
Qed.

(* balanced when read from a position that does not follow a backslash *)
Definition bal (s : str) : Prop := forall d, exists pb', bscan false d s = Some (pb', d).

Lemma word_brace_ok_bal w : word_brace_ok w = true -> bal w.
Proof.
  unfold word_brace_ok. intros H d. destruct (bscan false 0 w) as [[pb' [|n]]|] eqn:E; try discriminate.
  exists pb'. exact (bscan_shift w false 0 pb' 0 d E).
Qed.

Lemma bal_word_brace_ok w : bal w -> word_brace_ok w = true.
Proof. intros H. destruct (H 0) as (pb' & E). unfold word_brace_ok. rewrite E. reflexivity. Qed.

Lemma bal_nil : bal [].
Proof. intros d. exists false. reflexivity. Qed.

(* separators: no brace, no backslash *)
Definition plain (s : str) : bool :=
  forallb (fun c => negb (c =? c_lb)%N && negb (c =? c_rb)%N && negb (c =? c_bs)%N) s.

Lemma bscan_plain s : plain s = true -> s <> [] -> forall pb d, bscan pb d s = Some (false, d).
Proof.
  induction s as [|c s IH]; intros P Hne pb d; [contradiction|].
  cbn [plain forallb] in P. apply andb_true_iff in P as [Pc P]. apply andb_true_iff in Pc as [Pc P3].
  apply andb_true_iff in Pc as [P1 P2]. apply negb_true_iff in P1, P2, P3.
  cbn [bscan]. rewrite P1, P2, P3, !andb_false_r.
  destruct s as [|c2 s]; [reflexivity|]. apply IH; [exact P | discriminate].
Qed.

Lemma bal_app_sep a sep b : bal a -> plain sep = true -> sep <> [] -> bal b -> bal (a ++ sep ++ b).
Proof.
  intros Ha P Hne Hb d. destruct (Ha d) as (p1 & E1). destruct (Hb d) as (p2 & E2).
  exists p2. rewrite bscan_app, E1, bscan_app, (bscan_plain sep P Hne). exact E2.
Qed.

Lemma bal_snoc_bs a : bal a -> bal (a ++ [c_bs]).
Proof. intros Ha d. destruct (Ha d) as (p1 & E1). exists true. rewrite bscan_app, E1. destruct p1; reflexivity. Qed.

Lemma bal_join sep l : plain sep = true -> sep <> [] -> Forall bal l -> bal (join sep l).
Proof.
  intros P Hne F. induction F as [|x l Hx F IH]; [exact bal_nil|].
  destruct l as [|y r]; [exact Hx|].
  change (join sep (x :: y :: r)) with (x ++ sep ++ join sep (y :: r)). apply bal_app_sep; assumption.
Qed.

Lemma Forall_map_filter {A B} (P : B -> Prop) (f : A -> B) (g : A -> bool) l :
  Forall (fun x => P (f x)) l -> Forall P (map f (filter g l)).
Proof.
  induction 1 as [|x l Hx F IH]; [constructor|]. cbn [filter]. destruct (g x); [constructor; assumption | exact IH].
Qed.

Lemma bal_join_opt l : Forall bal l -> bal (opt_str (join_opt l)).
Proof.
  intros F. destruct l as [|x r]; [exact bal_nil|]. cbn [join_opt opt_str].
  apply bal_join; [reflexivity | discriminate | exact F].
Qed.

Lemma bal_escape s : bal s -> bal (escape_last_slash s).
Proof. intros H. unfold escape_last_slash. destruct (Nat.even _); [exact H | apply bal_snoc_bs; exact H]. Qed.

(* MergeNameParts("last") keeps the words balanced for the splitter: it only adds spaces, ", " and, after an odd run
   of backslashes, one more backslash *)
Lemma bal_merge1 p : Forall bal (all_words p) -> bal (merge1 p).
Proof.
  unfold all_words. intros F. apply Forall_app in F as [F1 F]. apply Forall_app in F as [F2 F]. apply Forall_app in F as [F3 F4].
  unfold merge1, merge_last_first.
  apply bal_join; [reflexivity | discriminate|].
  apply (Forall_map_filter bal (fun o => escape_last_slash (opt_str o)) truthy_opt).
  repeat constructor; cbn [opt_str]; apply bal_escape; try (apply bal_join_opt; assumption).
  apply bal_join; [reflexivity | discriminate|].
  apply (Forall_map_filter bal opt_str truthy_opt).
  repeat constructor; apply bal_join_opt; assumption.
Qed.

Lemma bal_merge_names l : Forall bal l -> bal (merge_names l).
Proof. intros F. unfold merge_names. apply bal_join; [reflexivity | discriminate | exact F]. Qed.

(* if every word of every person is balanced in the splitter's reading, so is the merged text; it is a
   brace content as soon as it does not end in a backslash *)
Theorem merged_brace_ok ps :
  Forall (fun p => Forall (fun w => word_brace_ok w = true) (all_words p)) ps ->
  Grammar.ends_bs false (merge_names (map merge1 ps)) = false ->
  brace_ok (merge_names (map merge1 ps)) = true.
Proof.
  intros F E.
  assert (B : bal (merge_names (map merge1 ps))).
  { apply bal_merge_names. apply Forall_map. eapply Forall_impl; [|exact F]. intros p Fp. apply bal_merge1.
    eapply Forall_impl; [|exact Fp]. intros w. apply word_brace_ok_bal. }
  destruct (B 0) as (pb' & Hb). pose proof (bscan_ends _ _ _ _ _ Hb) as Ep. rewrite E in Ep. subst pb'.
  unfold brace_ok. rewrite Hb. reflexivity.
Qed.

(* g applied to the value of every name field of an entry *)
Definition nmap (nf : list str) (g : value -> value) (b : block) : block :=
  match b with BEntry h t k fs => BEntry h t k (nmap_fields nf g fs) | _ => b end.
Definition cmap (nf : list str) (g : value -> value) (c : bcontent) : bcontent :=
  match c with
  | KEntry t k fs => KEntry t k (map (fun kv => if mem_str (fst kv) nf then (fst kv, g (snd kv)) else kv) fs)
  | _ => c
  end.

Lemma nmap_id nf b : nmap nf vid b = b.
Proof. destruct b; cbn [nmap]; try reflexivity. rewrite nmap_fields_id. reflexivity. Qed.
Lemma map_nmap_id nf bs : map (nmap nf vid) bs = bs.
Proof. induction bs as [|b r IH]; [reflexivity|]. cbn [map]. rewrite IH, nmap_id. reflexivity. Qed.

Lemma content1_nmap nf g b : content1 (nmap nf g b) = cmap nf g (content1 b).
Proof.
  destruct b; cbn [nmap content1 cmap]; try reflexivity. f_equal. unfold nmap_fields. rewrite !map_map.
  apply map_ext. intros f. cbn [fst snd]. destruct (mem_str (fkey f) nf); reflexivity.
Qed.
Lemma content_nmap nf g bs : content (map (nmap nf g) bs) = map (cmap nf g) (content bs).
Proof. unfold content. rewrite !map_map. apply map_ext. intros b. apply content1_nmap. Qed.

Lemma keys_nmap nf g bs : ekeys (map (nmap nf g) bs) = ekeys bs /\ skeys (map (nmap nf g) bs) = skeys bs.
Proof.
  induction bs as [|b r [I1 I2]]; [split; reflexivity|]. cbn [map ekeys skeys flat_map].
  fold (ekeys (map (nmap nf g) r)). fold (skeys (map (nmap nf g) r)). fold (ekeys r). fold (skeys r). rewrite I1, I2.
  destruct b; split; reflexivity.
Qed.
Lemma wf_nmap nf g bs : wf_blocks bs -> wf_blocks (map (nmap nf g) bs).
Proof. intros [W1 W2]. destruct (keys_nmap nf g bs) as [E1 E2]. unfold wf_blocks. rewrite E1, E2. split; assumption. Qed.
Lemma md_ok_nmap nf g bs : md_ok (map (nmap nf g) bs) = md_ok bs.
Proof.
  unfold md_ok. induction bs as [|b r IH]; [reflexivity|]. cbn [map forallb]. rewrite IH. destruct b; reflexivity.
Qed.

(* the condition "every name field of every entry satisfies Q", on blocks *)
Definition bsat (nf : list str) (Q : value -> Prop) (b : block) : Prop :=
  match b with BEntry _ _ _ fs => named nf Q fs | _ => True end.

Lemma bsat_content nf P bs : Forall (name_fields_sat nf P) (content bs) ->
  Forall (bsat nf (fun v => exists s, v = VStr s /\ P s)) bs.
Proof.
  induction bs as [|b r IH]; intros F; [constructor|]. cbn [content map] in F. inversion F as [|? ? Hb Fr]; subst.
  constructor; [|apply IH; exact Fr]. destruct b; cbn [content1 name_fields_sat bsat] in *; try exact I.
  rewrite Forall_map in Hb. exact Hb.
Qed.

Lemma map_res_map {T U} (f : T -> Enclosing.res U) (h : T -> U) l :
  Forall (fun x => f x = Enclosing.Val (h x)) l -> map_res f l = Enclosing.Val (map h l).
Proof. induction 1 as [|x r Hx F IH]; [reflexivity|]. cbn [map_res map]. rewrite Hx, IH. reflexivity. Qed.

Lemma name_mw_lib_nmap nf mw g g' bs : wf_blocks bs ->
  Forall (bsat nf (fun v => transform_value mw (g v) = VOk (g' v))) bs ->
  name_mw_lib nf mw (map (nmap nf g) bs) = Enclosing.Val (map (nmap nf g') bs).
Proof.
  intros W F. unfold name_mw_lib, block_mw.
  assert (E : map_res (fun b => nb_res (name_entry nf mw b)) (map (nmap nf g) bs)
              = Enclosing.Val (map (nmap nf g') bs)).
  { clear W. induction F as [|b r Hb F IH]; [reflexivity|]. cbn [map map_res]. rewrite IH.
    destruct b; cbn [nmap name_entry nb_res bsat] in *; try reflexivity.
    rewrite (tf_nmap nf mw g g' _ Hb). reflexivity. }
  rewrite E, (rebuild_id _ (wf_nmap nf g' bs W)). reflexivity.
Qed.

Lemma bsat_impl nf (P Q : value -> Prop) bs : (forall v, P v -> Q v) -> Forall (bsat nf P) bs -> Forall (bsat nf Q) bs.
Proof.
  intros HPQ F. eapply Forall_impl; [|exact F]. intros b Hb. destruct b; try exact I. exact (named_impl nf P Q _ HPQ Hb).
Qed.

(* SeparateCoAuthors ; SplitNameParts on a library whose name fields hold valid names *)
Lemma parse_side_lib nf bs : wf_blocks bs -> Forall (name_fields_sat nf valid_names) (content bs) ->
  names_lib nf parse_side bs = Enclosing.Val (map (nmap nf gp) bs).
Proof.
  intros W F. apply bsat_content in F. unfold names_lib, parse_side. cbn [fold_left].
  rewrite <- (map_nmap_id nf bs) at 1.
  rewrite (name_mw_lib_nmap nf MwSeparate vid gsep bs W) by (eapply bsat_impl; [|exact F]; intros v (s & -> & _); reflexivity).
  apply (name_mw_lib_nmap nf MwSplitParts gsep gp bs W). eapply bsat_impl; [|exact F]. intros v (s & -> & Hv). apply split_value, Hv.
Qed.

(* MergeNameParts("last") ; MergeCoAuthors on the result *)
Lemma write_side_lib nf bs : wf_blocks bs -> Forall (name_fields_sat nf (fun _ => True)) (content bs) ->
  names_lib nf write_side (map (nmap nf gp) bs) = Enclosing.Val (map (nmap nf gw) bs).
Proof.
  intros W F. apply bsat_content in F. unfold names_lib, write_side. cbn [fold_left].
  rewrite (name_mw_lib_nmap nf (MwMergeParts 0) gp gmerged bs W) by (eapply bsat_impl; [|exact F]; intros v (s & -> & _); apply merge_value).
  apply (name_mw_lib_nmap nf MwMergeCo gmerged gw bs W). eapply bsat_impl; [|exact F]. intros v (s & -> & _). apply join_value.
Qed.

Lemma sat_impl nf (P Q : str -> Prop) cs : (forall s, P s -> Q s) ->
  Forall (name_fields_sat nf P) cs -> Forall (name_fields_sat nf Q) cs.
Proof.
  intros HPQ F. eapply Forall_impl; [|exact F]. intros c Hc. destruct c; cbn [name_fields_sat] in *; try exact I.
  eapply Forall_impl; [|exact Hc]. intros kv H Em. destruct (H Em) as (s & E & Hs). exists s. split; [exact E | apply HPQ, Hs].
Qed.

(* the names C14 speaks about (valid, admissible, outside K3), as a predicate of the text: Spec.C14Stack.name_value_ok
   without the writability of the merged text *)
Definition in_scope (s : str) : Prop :=
  valid_names s /\ Forall admissible (parts_of s) /\ known_C14_K3_b (parts_of s) = false.

Lemma in_scope_inverse s : in_scope s -> persons_of (remerge s) = map POk (parts_of s).
Proof. intros (V & A & K). exact (list_inverse_except_known s (parts_of s) V A K). Qed.

Lemma in_scope_remerge s : in_scope s -> valid_names (remerge s) /\ parts_of (remerge s) = parts_of s.
Proof.
  intros H. pose proof (in_scope_inverse s H) as E. pose proof (parts_of_ok _ _ E) as Ep.
  split; [unfold valid_names; rewrite Ep; exact E | exact Ep].
Qed.

(* splitting the merged text gives the structured value again *)
Lemma cmap_gp_gw nf c : name_fields_sat nf in_scope c -> cmap nf gp (cmap nf gw c) = cmap nf gp c.
Proof.
  destruct c as [t k fs| | | | |]; cbn [name_fields_sat cmap]; try reflexivity.
  intros F. f_equal. rewrite map_map. induction F as [|kv r Hkv F IH]; [reflexivity|]. cbn [map]. rewrite IH. f_equal.
  destruct (mem_str (fst kv) nf) eqn:Em; cbn [fst snd]; rewrite Em; [|reflexivity].
  destruct (Hkv eq_refl) as (s & -> & Hs). cbn [gw gp]. rewrite (proj2 (in_scope_remerge s Hs)). reflexivity.
Qed.

Lemma sat_gw nf c : name_fields_sat nf in_scope c -> name_fields_sat nf valid_names (cmap nf gw c).
Proof.
  destruct c as [t k fs| | | | |]; cbn [name_fields_sat cmap]; try (intros; exact I).
  intros F. apply Forall_map. eapply Forall_impl; [|exact F]. intros kv Hkv.
  destruct (mem_str (fst kv) nf) eqn:Em; cbn [fst snd]; rewrite Em; [|discriminate].
  intros _. destruct (Hkv Em) as (s & -> & Hs). exists (remerge s). split; [reflexivity | exact (proj1 (in_scope_remerge s Hs))].
Qed.

(* l0 is any library (unique keys, sane enclosing metadata) whose name fields hold names in scope; if the library
   after the write-side middlewares is clean (every text a brace content without block-start pattern: cs'), then the
   write succeeds, its output parses, and the parse side yields the structured library again *)
Theorem stack_core nf f l0 cs' : wf_fmt f -> wf_blocks l0 -> md_ok l0 = true ->
  Forall (name_fields_sat nf in_scope) (content l0) ->
  content (map (nmap nf gw) l0) = ccontent cs' -> wf_cs false cs' ->
  let l1 := map (nmap nf gp) l0 in
  names_lib nf parse_side l0 = Enclosing.Val l1 /\
  write_names nf f l1 = PVal (render (ast_fmt f cs')) /\
  exists l2, parse_names nf (render (ast_fmt f cs')) = PVal l2 /\ content l2 = content l1.
Proof.
  intros Hf W Hm Hs Ec Wcs l1.
  assert (Hv : Forall (name_fields_sat nf valid_names) (content l0)) by (apply (sat_impl nf in_scope); [intros s H; apply H | exact Hs]).
  split; [exact (parse_side_lib nf l0 W Hv)|].
  set (lm := map (nmap nf gw) l0) in *.
  assert (Wm : wf_blocks lm) by (apply wf_nmap; exact W).
  assert (Mm : md_ok lm = true) by (unfold lm; rewrite md_ok_nmap; exact Hm).
  destruct (clean_written f cs' lm Hf Wcs Ec Wm Mm) as (Hw & Wd & Nd).
  assert (Ews : names_lib nf write_side l1 = Enclosing.Val lm).
  { apply write_side_lib; [exact W|]. apply (sat_impl nf in_scope); [intros; exact I | exact Hs]. }
  split; [unfold write_names; rewrite Ews; exact Hw|].
  destruct (parse_render_total _ Wd Nd) as (l2' & P2).
  destruct (clean_roundtrip f cs' lm _ l2' Hf Wcs Ec Wm Mm Hw P2) as (_ & _ & C2 & _).
  destruct (parse_default_props _ _ P2) as [W2 M2].
  assert (Hv2 : Forall (name_fields_sat nf valid_names) (content l2')).
  { rewrite C2. unfold lm. rewrite content_nmap. apply Forall_map. eapply Forall_impl; [|exact Hs]. intros c. apply sat_gw. }
  exists (map (nmap nf gp) l2'). split.
  - unfold parse_names. rewrite P2, (parse_side_lib nf l2' W2 Hv2). reflexivity.
  - unfold l1. rewrite !content_nmap, C2. unfold lm. rewrite content_nmap, map_map.
    clear - Hs. induction Hs as [|c r Hc Hs IH]; [reflexivity|]. cbn [map]. rewrite IH, (cmap_gp_gw nf c Hc). reflexivity.
Qed.

Lemma writable_cb s : writable s -> exists b, render_braced b = s /\ wf_cb b.
Proof.
  intros [B N]. destruct (brace_ok_ast s B) as (b & E & W). exists b. split; [exact E|]. split; [exact W|].
  rewrite E. exact (nat_ok_intro s [c_rb] N).
Qed.

Lemma name_value_ok_scope s : name_value_ok s -> in_scope s /\ writable (remerge s).
Proof. intros (V & A & K & Wr). split; [split; [exact V | split; [exact A | exact K]] | exact Wr]. Qed.

Lemma name_value_ok_intro s ps : persons_of s = map POk ps -> Forall admissible ps -> known_C14_K3_b ps = false ->
  writable (merge_names (map merge1 ps)) -> name_value_ok s.
Proof.
  intros Hv Ha Hk Hw. unfold name_value_ok, remerge. rewrite (parts_of_ok s ps Hv). repeat split; try assumption; apply Hw.
Qed.

Definition cpair (p : str * braced) : str * value := (fst p, cval (snd p)).

(* key/value pairs whose values are writable texts are the pairs of clean fields with the same keys *)
Lemma clean_pairs {A} (key : A -> str) (val : A -> value) (l : list A) :
  Forall (fun a => name_ok (key a) = true /\ nat_ok (key a) /\ exists s, val a = VStr s /\ writable s) l ->
  exists cfs, map (fun a => (key a, val a)) l = map cpair cfs /\ Forall wf_cfield cfs /\ map fst cfs = map key l.
Proof.
  induction 1 as [|a l (N1 & N2 & s & Es & Wr) _ (cfs & IE & IW & IK)]; [exists []; repeat split; constructor|].
  destruct (writable_cb s Wr) as (b & Eb & Wb). exists ((key a, b) :: cfs). cbn [map fst]. rewrite IE, IK, Es, <- Eb.
  split; [reflexivity|]. split; [constructor; [exact (conj N1 (conj N2 Wb)) | exact IW] | reflexivity].
Qed.

(* a clean library stays clean when the name fields are replaced by writable merged texts *)
Lemma clean_fields_merge nf fs : Forall wf_cfield fs ->
  Forall (fun kv => mem_str (fst kv) nf = true -> exists s, snd kv = VStr s /\ writable (remerge s)) (map cpair fs) ->
  exists fs', map (fun kv => if mem_str (fst kv) nf then (fst kv, gw (snd kv)) else kv) (map cpair fs) = map cpair fs'
              /\ Forall wf_cfield fs' /\ map fst fs' = map fst fs.
Proof.
  intros Hw S. rewrite Forall_map in S. rewrite map_map.
  destruct (clean_pairs fst (fun p => if mem_str (fst p) nf then gw (cval (snd p)) else cval (snd p)) fs) as (fs' & E & R).
  { eapply Forall_impl; [|exact (Forall_and Hw S)]. intros [n b] [(N1 & N2 & Wb & Nb) Sp]. cbn [cpair fst snd] in *.
    split; [exact N1|]. split; [exact N2|]. destruct (mem_str n nf).
    - destruct (Sp eq_refl) as (s & -> & Wr). exists (remerge s). split; [reflexivity | exact Wr].
    - exists (render_braced b). split; [reflexivity|]. split; [exact (render_brace_ok b Wb) | apply Nb, tailok_stop; reflexivity]. }
  exists fs'. split; [|exact R]. rewrite <- E. apply map_ext. intros [n b]. cbn [cpair fst snd]. destruct (mem_str n nf); reflexivity.
Qed.

Lemma clean_after_merge nf cs : forall prev, wf_cs prev cs ->
  Forall (name_fields_sat nf (fun s => writable (remerge s))) (ccontent cs) ->
  exists cs', map (cmap nf gw) (ccontent cs) = ccontent cs' /\ wf_cs prev cs'.
Proof.
  induction cs as [|c r IH]; intros prev W F; [exists []; split; [reflexivity | exact I]|].
  destruct W as (Wc & Hfree & Wr). cbn [ccontent map] in F. fold (ccontent r) in F. inversion F as [|? ? Fc Fr]; subst.
  destruct (IH _ Wr Fr) as (r' & E & Wr').
  destruct c as [t k fs|n b|b|b|t];
    [| exists (CString n b :: r') | exists (CPre b :: r') | exists (CExpl b :: r') | exists (CFree t :: r')].
  2-5: split; [cbn [ccontent map cc1 cmap]; fold (ccontent r); fold (ccontent r'); rewrite E; reflexivity|];
       cbn [wf_cs cfree] in *; split; [exact Wc | split; [exact Hfree | exact Wr']].
  destruct Wc as (T & K1 & K2 & K3 & Ff & Fresh). cbn [cc1 name_fields_sat] in Fc.
  change (map (fun p : str * braced => (fst p, cval (snd p))) fs) with (map cpair fs) in Fc.
  destruct (clean_fields_merge nf fs Ff Fc) as (fs' & Efs & Ffs' & Ek).
  exists (CEntry t k fs' :: r'). split.
  - cbn [ccontent map cc1 cmap]. fold (ccontent r). fold (ccontent r'). rewrite E.
    change (map (fun p : str * braced => (fst p, cval (snd p))) fs) with (map cpair fs). rewrite Efs. reflexivity.
  - cbn [wf_cs cfree] in *. split; [|split; [exact Hfree | exact Wr']].
    cbn [wf_citem]. rewrite Ek. split; [exact T|]. repeat split; assumption.
Qed.

(* a clean library (the kind every parse of a dialect document outside K7 produces) whose name fields are in
   scope and merge to writable text *)
Theorem stack_clean_roundtrip nf f cs l0 : wf_fmt f -> wf_cs false cs -> content l0 = ccontent cs ->
  wf_blocks l0 -> md_ok l0 = true -> Forall (name_fields_ok nf) (content l0) ->
  exists l1 t1 l2, names_lib nf parse_side l0 = Enclosing.Val l1 /\ write_names nf f l1 = PVal t1
                   /\ parse_names nf t1 = PVal l2 /\ content l2 = content l1.
Proof.
  intros Hf Wcs E W Hm Hs.
  assert (Hsc : Forall (name_fields_sat nf in_scope) (content l0)).
  { apply (sat_impl nf name_value_ok); [intros s H; apply (name_value_ok_scope s H) | exact Hs]. }
  assert (Hwr : Forall (name_fields_sat nf (fun s => writable (remerge s))) (ccontent cs)).
  { rewrite <- E. apply (sat_impl nf name_value_ok); [intros s H; apply (name_value_ok_scope s H) | exact Hs]. }
  destruct (clean_after_merge nf cs false Wcs Hwr) as (cs' & Ec & Wcs').
  assert (Ec' : content (map (nmap nf gw) l0) = ccontent cs') by (rewrite content_nmap, E; exact Ec).
  destruct (stack_core nf f l0 cs' Hf W Hm Hsc Ec' Wcs') as (P1 & Hw & l2 & P2 & C2).
  exists (map (nmap nf gp) l0), (Grammar.render (ast_fmt f cs')), l2. repeat split; assumption.
Qed.

(* the sentence of the property: a document of the dialect *)
Theorem stack_doc_roundtrip nf d f l0 : wf_doc d -> nodup_doc d -> wf_fmt f ->
  parse_default (Grammar.render d) = PVal l0 -> known_K7 l0 = false -> Forall (name_fields_ok nf) (content l0) ->
  exists l1 t1 l2, parse_names nf (Grammar.render d) = PVal l1 /\ write_names nf f l1 = PVal t1
                   /\ parse_names nf t1 = PVal l2 /\ content l2 = content l1.
Proof.
  intros Wd Nd Hf P1 K Hs.
  pose proof (parse_render_content d l0 Wd Nd P1) as C1.
  rewrite known_K7_c, C1 in K. destruct (first_parse_clean d Wd Nd K) as (cs & Wcs & Ecs).
  destruct (parse_default_props _ _ P1) as [Wb Hm].
  assert (E : content l0 = ccontent cs) by congruence.
  destruct (stack_clean_roundtrip nf f cs l0 Hf Wcs E Wb Hm Hs) as (l1 & t1 & l2 & A & B & C & D).
  exists l1, t1, l2. split; [unfold parse_names; rewrite P1, A; reflexivity|]. repeat split; assumption.
Qed.

Lemma no_at_nat_ok s : no_at s = true -> nat_ok s.
Proof. intros H. apply (nat_ok_intro s []). apply noat_plain. exact H. Qed.

Lemma entry_frame_clean t k : entry_frame_ok t k = true ->
  typ_clean t /\ name_ok k = true /\ Grammar.ends_bs false k = false /\ nat_ok k.
Proof.
  unfold entry_frame_ok. intros H.
  apply andb_true_iff in H as [H K3]. apply andb_true_iff in H as [H K2]. apply andb_true_iff in H as [H K1].
  apply andb_true_iff in H as [H T5]. apply andb_true_iff in H as [H T4]. apply andb_true_iff in H as [H T3].
  apply andb_true_iff in H as [T1 T2].
  split; [|split; [exact K1 | split; [apply negb_true_iff; exact K2 | apply no_at_nat_ok; exact K3]]].
  split; [exact T1|]. split; [apply str_eqb_eq; exact T2|]. rewrite T3, T4, T5. reflexivity.
Qed.

Lemma clean_entry_fields nf fs : Forall (entry_field_ok nf) fs ->
  exists cfs, map fpair (nmap_fields nf gw fs) = map cpair cfs /\ Forall wf_cfield cfs /\ map fst cfs = map fkey fs.
Proof.
  intros H. unfold nmap_fields. rewrite map_map.
  destruct (clean_pairs fkey (fun f => if mem_str (fkey f) nf then gw (fval f) else fval f) fs) as (cfs & E & R).
  { eapply Forall_impl; [|exact H]. intros f (Kf & s & Es & Hs). rewrite Es.
    apply andb_true_iff in Kf as [K1 K2]. split; [exact K1|]. split; [exact (no_at_nat_ok _ K2)|].
    destruct (mem_str (fkey f) nf); [exists (remerge s); split; [reflexivity | apply Hs] | exists s; split; [reflexivity | exact Hs]]. }
  exists cfs. split; [|exact R]. rewrite <- E. apply map_ext. intros f. destruct (mem_str (fkey f) nf); reflexivity.
Qed.

Lemma content_single_entry l t k X : content l = [KEntry t k X] ->
  exists h fs, l = [BEntry h t k fs] /\ map fpair fs = X.
Proof.
  destruct l as [|b [|b2 r]]; try discriminate. cbn [content map]. intros H. injection H as H.
  destruct b; try discriminate. cbn [content1] in H. injection H as -> -> <-. eexists _, _. split; reflexivity.
Qed.

(* one entry with any number of fields; only the merged texts (and the texts of the other fields) have to be
   writable, the original name texts need not be *)
Theorem stack_entry_roundtrip_nmap nf f h t k fs : wf_fmt f -> entry_frame_ok t k = true ->
  fresh_all [] (map fkey fs) = true -> md_ok [BEntry h t k fs] = true -> Forall (entry_field_ok nf) fs ->
  let fs1 := nmap_fields nf gp fs in
  names_lib nf parse_side [BEntry h t k fs] = Enclosing.Val [BEntry h t k fs1] /\
  exists t1 h' fs2, write_names nf f [BEntry h t k fs1] = PVal t1
                    /\ parse_names nf t1 = PVal [BEntry h' t k fs2] /\ map fpair fs2 = map fpair fs1.
Proof.
  intros Hf Hfr Fresh Hm Hfs fs1.
  destruct (entry_frame_clean t k Hfr) as (T & K1 & K2 & K3).
  destruct (clean_entry_fields nf fs Hfs) as (cfs & Ec & Fc & Ek).
  assert (W : wf_blocks [BEntry h t k fs]).
  { split; cbn; [constructor; [intros []|constructor] | constructor]. }
  assert (Hsc : Forall (name_fields_sat nf in_scope) (content [BEntry h t k fs])).
  { constructor; [|constructor]. cbn [content1 name_fields_sat]. apply Forall_map.
    eapply Forall_impl; [|exact Hfs]. intros x (_ & s & Es & Hs) Em. cbn [fst snd] in *. rewrite Em in Hs.
    exists s. split; [exact Es | exact (proj1 (name_value_ok_scope s Hs))]. }
  assert (Ec' : content (map (nmap nf gw) [BEntry h t k fs]) = ccontent [CEntry t k cfs]).
  { cbn [map nmap content content1 ccontent cc1]. f_equal. f_equal. exact Ec. }
  assert (Wcs : wf_cs false [CEntry t k cfs]).
  { cbn [wf_cs cfree andb]. split; [|split; [reflexivity | exact I]]. cbn [wf_citem]. rewrite Ek. split; [exact T|]. repeat split; assumption. }
  destruct (stack_core nf f _ _ Hf W Hm Hsc Ec' Wcs) as (P1 & Hw & l2 & P2 & C2).
  split; [exact P1|]. cbn [map nmap] in Hw, C2. fold fs1 in Hw, C2.
  cbn [content map content1] in C2. destruct (content_single_entry _ _ _ _ C2) as (h' & fs2 & -> & E2).
  exists (Grammar.render (ast_fmt f [CEntry t k cfs])), h', fs2. repeat split; assumption.
Qed.

(* one name field of one entry, with the persons given *)
Theorem stack_field_roundtrip nf f h t k name fl v ps :
  wf_fmt f -> entry_frame_ok t k = true -> field_key_ok name = true -> mem_str name nf = true ->
  md_ok [BEntry h t k [mkfield name (VStr v) fl]] = true ->
  persons_of v = map POk ps -> Forall admissible ps -> known_C14_K3_b ps = false ->
  writable (merge_names (map merge1 ps)) ->
  let structured := VList (map v_of_parts ps) in
  names_lib nf parse_side [BEntry h t k [mkfield name (VStr v) fl]] = Enclosing.Val [BEntry h t k [mkfield name structured fl]] /\
  exists t1 h' fl', write_names nf f [BEntry h t k [mkfield name structured fl]] = PVal t1
                    /\ parse_names nf t1 = PVal [BEntry h' t k [mkfield name structured fl']].
Proof.
  intros Hf Hfr Hk Hmem Hm Hv Ha Hk3 Hwr structured.
  pose proof (parts_of_ok v ps Hv) as Ep.
  assert (Hfs : Forall (entry_field_ok nf) [mkfield name (VStr v) fl]).
  { constructor; [|constructor]. split; [exact Hk|]. exists v. split; [reflexivity|]. cbn [fkey]. rewrite Hmem.
    exact (name_value_ok_intro v ps Hv Ha Hk3 Hwr). }
  assert (Fresh : fresh_all [] (map fkey [mkfield name (VStr v) fl]) = true) by reflexivity.
  destruct (stack_entry_roundtrip_nmap nf f h t k _ Hf Hfr Fresh Hm Hfs) as (P1 & t1 & h' & fs2 & Hw & P2 & E2).
  cbn [nmap_fields map fkey fval fline gp] in P1, Hw, E2. rewrite Hmem, Ep in P1, Hw, E2. fold structured in P1, Hw, E2.
  split; [exact P1|]. destruct fs2 as [|f2 [|f3 r]]; try discriminate. destruct f2 as [k2 v2 l2].
  cbn [map fpair fkey fval] in E2. injection E2 as -> ->. exists t1, h', l2. split; assumption.
Qed.

Theorem stack_entry_roundtrip nf f h t k fs : wf_fmt f -> entry_frame_ok t k = true ->
  fresh_all [] (map fkey fs) = true -> md_ok [BEntry h t k fs] = true -> Forall (entry_field_ok nf) fs ->
  exists fs1 t1 h' fs2,
    names_lib nf parse_side [BEntry h t k fs] = Enclosing.Val [BEntry h t k fs1]
    /\ write_names nf f [BEntry h t k fs1] = PVal t1
    /\ parse_names nf t1 = PVal [BEntry h' t k fs2]
    /\ map (fun x => (fkey x, fval x)) fs2 = map (fun x => (fkey x, fval x)) fs1.
Proof.
  intros Hf Hfr Fresh Hm Hfs.
  destruct (stack_entry_roundtrip_nmap nf f h t k fs Hf Hfr Fresh Hm Hfs) as (P1 & t1 & h' & fs2 & Hw & P2 & E2).
  exists (nmap_fields nf gp fs), t1, h', fs2. repeat split; assumption.
Qed.

Theorem merged_brace_ok_valid v ps : persons_of v = map POk ps ->
  Forall (fun p => Forall (fun t => no_double_bs t = true) (all_words p)) ps ->
  Grammar.ends_bs false (merge_names (map merge1 ps)) = false ->
  brace_ok (merge_names (map merge1 ps)) = true.
Proof.
  intros Hv Hn He. apply merged_brace_ok; [|exact He].
  pose proof (map_eq_exists split1 (@POk parts) _ _ Hv) as Hp. clear Hv He.
  induction Hp as [|p r (n & Hs) Hp IH]; [constructor|]. inversion Hn; subst.
  constructor; [|apply IH; assumption]. apply (valid_words_brace_ok n p Hs). assumption.
Qed.

Theorem stack_field_roundtrip_valid nf f h t k name fl v ps :
  wf_fmt f -> entry_frame_ok t k = true -> field_key_ok name = true -> mem_str name nf = true ->
  md_ok [BEntry h t k [mkfield name (VStr v) fl]] = true ->
  persons_of v = map POk ps -> Forall admissible ps -> known_C14_K3_b ps = false ->
  Forall (fun p => Forall (fun w => no_double_bs w = true) (all_words p)) ps ->
  Grammar.ends_bs false (merge_names (map merge1 ps)) = false ->
  noat (merge_names (map merge1 ps)) [c_rb] = true ->
  let structured := VList (map v_of_parts ps) in
  names_lib nf parse_side [BEntry h t k [mkfield name (VStr v) fl]] = Enclosing.Val [BEntry h t k [mkfield name structured fl]] /\
  exists t1 h' fl', write_names nf f [BEntry h t k [mkfield name structured fl]] = PVal t1
                    /\ parse_names nf t1 = PVal [BEntry h' t k [mkfield name structured fl']].
Proof.
  intros Hf Hfr Hk Hmem Hm Hv Ha Hk3 Hn He Hat.
  apply (stack_field_roundtrip nf f h t k name fl v ps); try assumption.
  split; [exact (merged_brace_ok_valid v ps Hv Hn He) | exact Hat].
Qed.

(* names.py reads "\\" as an escape pair, after which a brace is a real brace; the splitter's look-behind reads a
   brace after ANY backslash as escaped.  The words  {\\}  and  \\{}  are balanced for names.py and unbalanced for the
   splitter (+1 and -1); "{\\} \\{}" is a fine field value holding one valid person (First = {\\}, Last = \\{});
   MergeNameParts writes it last-name-first, "\\{}, {\\}", whose first '}' closes the field for the splitter. *)
Definition bs2_text : str := lit "@article{k, author = {{\\} \\{}}}"%string.
Definition bs2_value : str := lit "{\\} \\{}"%string.
Definition bs2_ps : list parts := [mkparts [lit "{\\}"%string] [] [lit "\\{}"%string] []].

Theorem stack_roundtrip_refuted :
  exists l1 t1 l2,
    parse_names default_name_fields bs2_text = PVal l1
    /\ content l1 = [KEntry (lit "article"%string) (lit "k"%string) [(lit "author"%string, VList (map v_of_parts bs2_ps))]]
    /\ persons_of bs2_value = map POk bs2_ps /\ forallb admissible_b bs2_ps = true /\ known_C14_K3_b bs2_ps = false
    /\ brace_ok bs2_value = true /\ noat bs2_value [c_rb] = true
    /\ forallb word_brace_ok (flat_map all_words bs2_ps) = false
    /\ merge_names (map merge1 bs2_ps) = lit "\\{}, {\\}"%string
    /\ brace_ok (merge_names (map merge1 bs2_ps)) = false
    /\ write_names default_name_fields default_fmt l1 = PVal t1
    /\ t1 = lit "@article{k,
	author = {\\{}, {\\}}
}
"%string
    /\ parse_names default_name_fields t1 = PVal l2
    /\ map class_of l2 = [CFailed; CImpl].
Proof.
  stage l1 (parse_names default_name_fields bs2_text).
  stage t1 (write_names default_name_fields default_fmt l1).
  stage l2 (parse_names default_name_fields t1).
  exists l1, t1, l2. repeat (split; [by_vm|]). by_vm.
Qed.

(* the assumption on block-start patterns must be made on the MERGED text: the tie of "Z @a~{x}" is not a blank, so the
   original text has no pattern '@' word* blank* '{'; its person is First Z, von @a, Last {x}; merged last-name-first it
   reads "@a {x}, Z", and the splitter starts a block at "@a {" (class K2 of C10, reached through the merge) *)
Definition at2_text : str := lit "@article{k, author = {Z @a~{x}}}"%string.
Definition at2_value : str := lit "Z @a~{x}"%string.
Definition at2_ps : list parts := [mkparts [lit "Z"%string] [lit "@a"%string] [lit "{x}"%string] []].

Theorem stack_roundtrip_refuted_at :
  exists l1 t1 l2,
    parse_names default_name_fields at2_text = PVal l1
    /\ content l1 = [KEntry (lit "article"%string) (lit "k"%string) [(lit "author"%string, VList (map v_of_parts at2_ps))]]
    /\ persons_of at2_value = map POk at2_ps /\ forallb admissible_b at2_ps = true /\ known_C14_K3_b at2_ps = false
    /\ brace_ok at2_value = true /\ noat at2_value [c_rb] = true
    /\ merge_names (map merge1 at2_ps) = lit "@a {x}, Z"%string
    /\ brace_ok (merge_names (map merge1 at2_ps)) = true
    /\ noat (merge_names (map merge1 at2_ps)) [c_rb] = false
    /\ write_names default_name_fields default_fmt l1 = PVal t1
    /\ parse_names default_name_fields t1 = PVal l2
    /\ map class_of l2 = [CFailed; Blocks.CEntry; CImpl].
Proof.
  stage l1 (parse_names default_name_fields at2_text).
  stage t1 (write_names default_name_fields default_fmt l1).
  stage l2 (parse_names default_name_fields t1).
  exists l1, t1, l2. repeat (split; [by_vm|]). by_vm.
Qed.

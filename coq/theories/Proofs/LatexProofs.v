(* Proofs for C18 (Model/LatexWrap.v against Spec/C18.v). *)
From Coq Require Import List NArith ZArith Bool Lia.
From BP Require Import Base.Chars Model.Blocks Model.LatexWrap Spec.C18 Proofs.LibAddProofs.
Import ListNotations.

Section Wrapper.
  Variable conv : str -> str * str.
  Let g (s : str) : str := fst (conv s).
  Let e (s : str) : str := snd (conv s).

  Lemma conv_field_value_eq v : conv_field_value conv v = (map_value g v, map e (visited_value v)).
  Proof.
    destruct v; try reflexivity. cbn [conv_field_value conv_all visited_value map_value].
    rewrite !map_app. reflexivity.
  Qed.

  Lemma conv_fields_eq fs :
    conv_fields conv fs = (map (fun f => mkfield (fkey f) (map_value g (fval f)) (fline f)) fs,
                           map e (flat_map (fun f => visited_value (fval f)) fs)).
  Proof.
    induction fs as [|f r IH]; [reflexivity|].
    cbn [conv_fields]. rewrite conv_field_value_eq, IH. cbn [map flat_map]. rewrite map_app. reflexivity.
  Qed.

  (* the model's [mw_error] is the specification's [error_block] *)
  Lemma mw_error_error_block b : mw_error b = error_block b.
  Proof. reflexivity. Qed.

  (* the wrapper in one line: convert every visited text; the block is wrapped into an error block iff some message is
     non-empty; the reasons are the non-empty messages in visiting order *)
  Theorem latex_block_eq b :
    latex_block conv b =
    let p := map_block g b in
    let errs := filter nonempty (map e (visited b)) in
    (match errs with [] => p | _ => error_block p end, errs).
  Proof.
    destruct b; try reflexivity.
    - cbn [latex_block]. rewrite conv_fields_eq. cbn [visited map_block]. cbv zeta.
      destruct (filter nonempty (map e (flat_map (fun f => visited_value (fval f)) fields)));
        rewrite ?mw_error_error_block; reflexivity.
    - destruct v; try reflexivity. cbn [latex_block visited map_block map filter]. cbv zeta.
      unfold g, e. destruct (conv s) as [r m]. cbn [fst snd]. destruct (nonempty m); rewrite ?mw_error_error_block; reflexivity.
  Qed.

  Lemma map_value_scope f v : vscope v (map_value f v).
  Proof.
    destruct v; try reflexivity.
    - eexists. reflexivity.
    - cbn [vscope map_value]. do 4 eexists. split; [reflexivity|]. rewrite !map_length. repeat split; reflexivity.
  Qed.

  Lemma map_block_scope f b : bscope b (map_block f b).
  Proof.
    destruct b; try reflexivity.
    - cbn [bscope map_block]. eexists. split; [reflexivity|].
      induction fields as [|x r IH]; constructor; [|exact IH].
      repeat split. apply map_value_scope.
    - destruct v; cbn [bscope map_block]; eexists; (split; [reflexivity|]); try reflexivity. eexists. reflexivity.
  Qed.

  Lemma bscope_hdr b p : bscope b p -> bhdr p = bhdr b.
  Proof.
    destruct b; cbn [bscope]; try (intros ->; reflexivity).
    - intros (fs' & -> & _). reflexivity.
    - intros (v' & -> & _). reflexivity.
  Qed.

  Theorem latex_scope b : exists p, bscope b p
    /\ (fst (latex_block conv b) = p \/ fst (latex_block conv b) = BMwErr (mkhdr (sl (bhdr b)) (raw (bhdr b)) []) EPartial p).
  Proof.
    exists (map_block g b). split; [exact (map_block_scope g b)|].
    rewrite latex_block_eq. cbv zeta. cbn [fst].
    destruct (filter nonempty (map e (visited b))); [left; reflexivity|].
    right. unfold error_block. rewrite (bscope_hdr b _ (map_block_scope g b)). reflexivity.
  Qed.

  Lemma filter_nonempty_nil l : filter nonempty l = [] <-> forall m, In m l -> m = [].
  Proof.
    induction l as [|x l IH]; simpl; [split; [intros _ m [] | reflexivity]|].
    destruct x as [|c x]; simpl.
    - rewrite IH. split; [intros H m [<-|Hm]; [reflexivity | exact (H m Hm)] | intros H m Hm; apply H; right; exact Hm].
    - split; [discriminate|]. intros H. specialize (H (c :: x) (or_introl eq_refl)). discriminate.
  Qed.

  Theorem latex_errors_iff b :
    (exists s, In s (visited b) /\ snd (conv s) <> [])
    <-> fst (latex_block conv b) = error_block (map_block g b) /\ snd (latex_block conv b) <> [].
  Proof.
    rewrite latex_block_eq. cbv zeta. cbn [fst snd]. split.
    - intros (s & Hs & Hne).
      destruct (filter nonempty (map e (visited b))) eqn:E; [|split; [reflexivity | discriminate]].
      exfalso. apply Hne. rewrite filter_nonempty_nil in E. apply E. apply in_map_iff. exists s. split; [reflexivity | exact Hs].
    - intros [_ H]. destruct (filter nonempty (map e (visited b))) as [|m l] eqn:E; [contradiction|].
      assert (Hin : In m (filter nonempty (map e (visited b)))) by (rewrite E; left; reflexivity).
      apply filter_In in Hin. destruct Hin as [Hin Hm]. apply in_map_iff in Hin. destruct Hin as (s & <- & Hs).
      exists s. split; [exact Hs|]. unfold e in Hm. destruct (snd (conv s)); [discriminate | discriminate].
  Qed.

  Theorem latex_clean b : (forall s, In s (visited b) -> snd (conv s) = []) -> latex_block conv b = (map_block g b, []).
  Proof.
    intros H. rewrite latex_block_eq. cbv zeta.
    assert (E : filter nonempty (map e (visited b)) = []).
    { apply filter_nonempty_nil. intros m Hm. apply in_map_iff in Hm. destruct Hm as (s & <- & Hs). apply H. exact Hs. }
    rewrite E. reflexivity.
  Qed.

  (* a block that fails becomes an error block, which has no key: keys can only disappear, so the invariant of the
     library survives and Library(blocks=...) adds the new blocks as they are *)
  Lemma NoDup_drop_middle {T} (a b c : list T) : NoDup (a ++ b ++ c) -> NoDup (a ++ c).
  Proof. induction b as [|x b IH]; [auto|]. intros H. apply IH. exact (NoDup_remove_1 a (b ++ c) x H). Qed.

  (* keys stay distinct when some blocks lose theirs; [pre] are the keys of the blocks before *)
  Lemma keys_shrink (kf : block -> list str) (f : block -> block) bs :
    (forall b, kf (f b) = kf b \/ kf (f b) = []) ->
    forall pre, NoDup (pre ++ flat_map kf bs) -> NoDup (pre ++ flat_map kf (map f bs)).
  Proof.
    intros Hf. induction bs as [|b l IH]; intros pre H; [exact H|]. cbn [map flat_map] in *.
    destruct (Hf b) as [E|E]; rewrite E.
    - rewrite app_assoc in *. apply IH, H.
    - apply IH, (NoDup_drop_middle pre (kf b)), H.
  Qed.

  Lemma latex_block_keys b : (ekey (fst (latex_block conv b)) = ekey b \/ ekey (fst (latex_block conv b)) = [])
                             /\ (skey (fst (latex_block conv b)) = skey b \/ skey (fst (latex_block conv b)) = []).
  Proof.
    rewrite latex_block_eq. cbv zeta. cbn [fst].
    destruct (filter nonempty (map e (visited b))); [|split; right; reflexivity].
    destruct b; try (split; left; reflexivity). destruct v; split; left; reflexivity.
  Qed.

  Theorem latex_lib_blockwise bs : wf_blocks bs ->
    latex_lib conv bs = map (fun b => fst (latex_block conv b)) bs /\ wf_blocks (latex_lib conv bs).
  Proof.
    intros [W1 W2]. unfold latex_lib.
    assert (W' : wf_blocks (map (fun b => fst (latex_block conv b)) bs)).
    { split.
      - exact (keys_shrink ekey _ bs (fun b => proj1 (latex_block_keys b)) [] W1).
      - exact (keys_shrink skey _ bs (fun b => proj2 (latex_block_keys b)) [] W2). }
    rewrite (rebuild_id _ W'). split; [reflexivity | exact W'].
  Qed.
End Wrapper.

Theorem py_wrap_fails f s : snd (py_wrap f s) <> [] <-> fails f s.
Proof.
  unfold py_wrap, fails. destruct (f s) as [r|msg c0 cls]; cbn [snd].
  - split; [intros H; contradiction H; reflexivity | intros (m & c & l & H); discriminate].
  - split; [intros _; do 3 eexists; reflexivity | intros _; destruct msg; discriminate].
Qed.

Theorem py_wrap_text f s : fst (py_wrap f s) = outcome_text f s.
Proof. unfold py_wrap, outcome_text. destruct (f s); reflexivity. Qed.

(* an exception without message is reported under its class name *)
Theorem py_wrap_empty_message f s c0 cls : f s = Fail [] c0 cls -> py_wrap f s = (s, c0 :: cls).
Proof. intros H. unfold py_wrap. rewrite H. reflexivity. Qed.

Lemma map_block_ext f1 f2 b : (forall s, f1 s = f2 s) -> map_block f1 b = map_block f2 b.
Proof.
  intros H. destruct b; try reflexivity.
  - cbn [map_block]. f_equal. apply map_ext. intros x. f_equal.
    destruct (fval x); try reflexivity; cbn [map_value]; [rewrite H; reflexivity|].
    f_equal; apply map_ext; exact H.
  - destruct v; try reflexivity. cbn [map_block]. rewrite H. reflexivity.
Qed.

Lemma map_block_outcome f b : map_block (fun s => fst (py_wrap f s)) b = map_block (outcome_text f) b.
Proof. apply map_block_ext, py_wrap_text. Qed.

(* EVERY failure is contained: some visited text makes the converter raise  <->  the result is the error block that
   holds the block with every text converted or, where the conversion failed, left as it was *)
Theorem latex_errors_all f b :
  (exists s, In s (visited b) /\ fails f s)
  <-> fst (latex_block (py_wrap f) b) = error_block (map_block (outcome_text f) b) /\ snd (latex_block (py_wrap f) b) <> [].
Proof.
  rewrite <- map_block_outcome.
  rewrite <- latex_errors_iff. split; intros (s & Hs & H); exists s; (split; [exact Hs|]); apply py_wrap_fails; exact H.
Qed.

Theorem latex_no_failure f b : (forall s, In s (visited b) -> ~ fails f s) ->
  latex_block (py_wrap f) b = (map_block (outcome_text f) b, []).
Proof.
  intros H. rewrite <- map_block_outcome.
  apply latex_clean. intros s Hs. destruct (snd (py_wrap f s)) eqn:E; [reflexivity|].
  exfalso. apply (H s Hs). apply py_wrap_fails. rewrite E. discriminate.
Qed.

Lemma visited_map_block f b : visited (map_block f b) = map f (visited b).
Proof.
  destruct b; try reflexivity.
  - cbn [visited map_block]. induction fields as [|x r IH]; [reflexivity|].
    cbn [map flat_map fval]. rewrite map_app, IH. f_equal.
    destruct (fval x); try reflexivity. cbn [map_value visited_value]. rewrite !map_app. reflexivity.
  - destruct v; reflexivity.
Qed.

Lemma map_id_on {T} (f : T -> T) l : (forall x, In x l -> f x = x) -> map f l = l.
Proof. intros H. transitivity (map (fun x => x) l); [apply map_ext_in; exact H | apply map_id]. Qed.

Lemma map_value_inv f1 f2 v : (forall s, In s (visited_value v) -> f2 (f1 s) = s) -> map_value f2 (map_value f1 v) = v.
Proof.
  destruct v; try reflexivity; cbn [map_value visited_value]; intros H.
  - rewrite H; [reflexivity | left; reflexivity].
  - rewrite !map_map. f_equal; apply map_id_on; intros x Hx; apply H; auto 7 using in_or_app.
Qed.

Lemma map_block_inv f1 f2 b : (forall s, In s (visited b) -> f2 (f1 s) = s) -> map_block f2 (map_block f1 b) = b.
Proof.
  destruct b; try reflexivity.
  - cbn [visited map_block]. intros H. f_equal. rewrite map_map. cbn [fkey fval fline].
    induction fields as [|x r IH]; [reflexivity|]. cbn [map]. rewrite IH.
    + rewrite map_value_inv; [destruct x; reflexivity|]. intros s Hs. apply H. cbn [flat_map]. apply in_or_app. left. exact Hs.
    + intros s Hs. apply H. cbn [flat_map]. apply in_or_app. right. exact Hs.
  - destruct v; try reflexivity. cbn [visited map_block]. intros H. rewrite H; [reflexivity | left; reflexivity].
Qed.

Lemma clean_lib conv bs : wf_blocks bs -> (forall b s, In b bs -> In s (visited b) -> snd (conv s) = []) ->
  latex_lib conv bs = map (map_block (fun s => fst (conv s))) bs.
Proof.
  intros W H. rewrite (proj1 (latex_lib_blockwise conv bs W)). apply map_ext_in. intros b Hb.
  rewrite (latex_clean conv b (fun s Hs => H b s Hb Hs)). reflexivity.
Qed.

Theorem roundtrip_conditional (enc dec : str -> str * str) (P : str -> Prop) :
  (forall s, P s -> snd (enc s) = [] /\ dec (fst (enc s)) = (s, [])) ->
  forall bs, wf_blocks bs -> all_texts P bs ->
  latex_lib dec (latex_lib enc bs) = bs
  /\ latex_errors enc bs = map (fun _ => []) bs.
Proof.
  intros Hrt bs W HP.
  assert (Henc : latex_lib enc bs = map (map_block (fun s => fst (enc s))) bs).
  { apply clean_lib; [exact W|]. intros b s Hb Hs. exact (proj1 (Hrt s (HP b s Hb Hs))). }
  pose proof (proj2 (latex_lib_blockwise enc bs W)) as W1. rewrite Henc in *.
  split.
  - rewrite clean_lib; [| exact W1 |].
    + rewrite map_map. apply map_id_on. intros b Hb. apply map_block_inv. intros s Hs.
      rewrite (proj2 (Hrt s (HP b s Hb Hs))). reflexivity.
    + intros b' s' Hb' Hs'. apply in_map_iff in Hb'. destruct Hb' as (b & <- & Hb).
      rewrite visited_map_block in Hs'. apply in_map_iff in Hs'. destruct Hs' as (s & <- & Hs).
      rewrite (proj2 (Hrt s (HP b s Hb Hs))). reflexivity.
  - unfold latex_errors. apply map_ext_in. intros b Hb.
    rewrite (latex_clean enc b); [reflexivity|]. intros s Hs. exact (proj1 (Hrt s (HP b s Hb Hs))).
Qed.

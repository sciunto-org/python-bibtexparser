(* C02: the splitter machine parses every rendered well-formed document back to its ground truth
   (split_render; split_render_rep when field names may repeat).
   [runf] fuses fold_left step with classify.  Under side condition G ([noat]) classify1 is the context-free
   [delim], and a run of text all of whose characters a mode merely accumulates is handled by run_out, run_head
   and, for the modes that read a key or a value, run_flat: [flat] is the one tracker of braces and quotes, and
   well-formed content brings it back to where it started.  The open block stays a variable.  The structural
   delimiters are single steps.  The accumulators of the open block are reversed lists; [fwd] names an open block
   by its texts in reading order, the updates compute on that form, and the block emitted when it closes is read
   off it (field_done, entry_after_fields).  Then one lemma per item and an induction on the item list. *)
From Coq Require Import List NArith ZArith Bool Lia String.
From BP Require Import Base.Chars Model.Blocks Model.Lexer Model.Splitter Spec.C03 Model.Grammar Proofs.SplitTotal
  Proofs.SplitTiling Proofs.DupProofs.
Import ListNotations.
Local Open Scope Z_scope.

Fixpoint runf (pb : bool) (l : str) (s : st) : st :=
  match l with
  | [] => s
  | c :: r => runf (c =? c_bs)%N r (step s (c, classify1 pb c r))
  end.
Lemma runf_fold l : forall pb s, fold_left step (classify pb l) s = runf pb l s.
Proof. induction l as [|c r IH]; intros pb s; cbn [classify fold_left runf]; [reflexivity | apply IH]. Qed.

(* H : b1 && ... && bn = true becomes the conjunction, nested as the && are, with negb b = true turned into b = false *)
Ltac band H :=
  lazymatch type of H with
  | andb _ _ = true =>
      let H1 := fresh in let H2 := fresh in
      destruct (andb_prop _ _ H) as [H1 H2]; clear H; band H1; band H2; pose proof (conj H1 H2) as H; clear H1 H2
  | negb _ = true => apply negb_true_iff in H
  | _ => idtac
  end.
(* lists of characters: right-nested appends with conses pushed through *)
Ltac lnorm := repeat (progress (rewrite <- ?app_assoc; cbn [app])).
Ltac lnorm_in H := repeat (progress (rewrite <- ?app_assoc in H; cbn [app] in H)).

Lemma classify1_delim pb c rest :
  (negb (c =? c_at)%N || negb (at_ok rest)) = true -> classify1 pb c rest = delim pb c.
Proof.
  intros H. unfold classify1, delim. destruct (c =? c_nl)%N; [reflexivity|].
  destruct (c =? c_at)%N eqn:E.
  - cbn in H. rewrite negb_true_iff in H. rewrite H. apply N.eqb_eq in E. subst c. destruct pb; reflexivity.
  - reflexivity.
Qed.
(* delim is classify1 with no look-ahead to succeed *)
Lemma delim_classify1 pb c : delim pb c = classify1 pb c [].
Proof. symmetry. apply classify1_delim. apply orb_true_r. Qed.
Lemma delim_char pb c k : delim pb c = Some k -> c = mk_char k.
Proof. rewrite delim_classify1. apply classify1_char. Qed.
Lemma delim_not_nl pb c : delim pb c <> Some MNL -> (c =? c_nl)%N = false.
Proof.
  intros H. destruct (c =? c_nl)%N eqn:E; [|reflexivity]. exfalso. apply H. unfold delim. rewrite E. reflexivity.
Qed.
Lemma delim_not_at pb c : delim pb c <> Some MAt.
Proof. intros H. pose proof (delim_char _ _ _ H) as ->. rewrite delim_classify1 in H. discriminate H. Qed.

Lemma noat_app t1 : forall t2 rest, noat (t1 ++ t2) rest = noat t1 (t2 ++ rest) && noat t2 rest.
Proof.
  induction t1 as [|c t1 IH]; intros t2 rest; cbn [app noat]; [reflexivity|].
  rewrite IH, <- app_assoc, andb_assoc. reflexivity.
Qed.
Lemma noat_mid a t b rest : noat (a ++ t ++ b) rest = true -> noat t (b ++ rest) = true.
Proof. rewrite !noat_app. intros H. band H. apply H. Qed.
Lemma ends_bs_app t1 : forall pb t2, ends_bs pb (t1 ++ t2) = ends_bs (ends_bs pb t1) t2.
Proof. induction t1 as [|c t1 IH]; intros pb t2; cbn [app ends_bs]; [reflexivity | apply IH]. Qed.
Lemma space_not_bs c : isspace c = true -> (c =? c_bs)%N = false.
Proof. intros H. apply (eqb_false_of_flag isspace c c_bs H eq_refl). Qed.
Lemma ends_bs_ws w : forall pb, is_ws w = true -> pb = false -> ends_bs pb w = false.
Proof.
  induction w as [|c w IH]; intros pb H Hpb; cbn [ends_bs]; [exact Hpb|].
  cbn [is_ws forallb] in H. apply andb_true_iff in H as [Hc Hw]. apply IH; [exact Hw | apply space_not_bs, Hc].
Qed.
Lemma noat_ws w rest : is_ws w = true -> noat w rest = true.
Proof.
  induction w as [|c w IH]; intros H; cbn [noat]; [reflexivity|].
  cbn [is_ws forallb] in H. apply andb_true_iff in H as [Hc Hw].
  rewrite (eqb_false_of_flag isspace c c_at Hc eq_refl). cbn. apply IH, Hw.
Qed.
Lemma is_ws_app a b : is_ws (a ++ b) = is_ws a && is_ws b.
Proof. apply forallb_app. Qed.
Lemma count_nl_cons c r : count_nl (c :: r) = (if (c =? c_nl)%N then 1 else 0) + count_nl r.
Proof. reflexivity. Qed.
Lemma app3 {A} (a b c x : list A) : a ++ b ++ c ++ x = (a ++ b ++ c) ++ x.
Proof. rewrite <- !app_assoc. reflexivity. Qed.
Lemma rev_snoc {A} (R : list A) c : c :: rev R = rev (R ++ [c]).
Proof. rewrite rev_unit. reflexivity. Qed.

Lemma run_out t : forall pb rest ln o P icl B, noat t rest = true ->
  runf pb (t ++ rest) (mkst Out ln o (rev P) icl B)
  = runf (ends_bs pb t) rest (mkst Out (ln + count_nl t) o (rev (P ++ t)) icl B).
Proof.
  induction t as [|c t IH]; intros pb rest ln o P icl B H; cbn [app runf ends_bs].
  - rewrite app_nil_r, Z.add_0_r. reflexivity.
  - cbn [noat] in H. apply andb_true_iff in H as [Hc Ht].
    rewrite (classify1_delim pb c _ Hc). rewrite count_nl_cons.
    assert (E : step (mkst Out ln o (rev P) icl B) (c, delim pb c)
                = mkst Out (ln + (if (c =? c_nl)%N then 1 else 0)) o (rev (P ++ [c])) icl B).
    { rewrite <- rev_snoc. destruct (delim pb c) as [[]|] eqn:D; cbn [step md step_out line out_rev ic_rev ic_line ob];
        try (rewrite (delim_not_nl pb c) by (rewrite D; discriminate)); rewrite ?Z.add_0_r; try reflexivity.
      - apply delim_char in D. subst c. reflexivity.
      - exfalso. exact (delim_not_at _ _ D). }
    rewrite E, (IH _ _ _ _ _ _ _ Ht), <- app_assoc, Z.add_assoc. reflexivity.
Qed.

(* t appended to the raw text of the open block and to its type, key or value accumulator *)
Definition add_typ (t : str) (o : openb) : openb :=
  mkob (b_line o) (rev t ++ raw_rev o) (rev t ++ typ_rev o) (a_rev o) (v_rev o) (etyp o) (ekey o) (f_line o)
       (flds_rev o) (seen o) (dups o).
Definition add_a (t : str) (o : openb) : openb :=
  mkob (b_line o) (rev t ++ raw_rev o) (typ_rev o) (rev t ++ a_rev o) (v_rev o) (etyp o) (ekey o) (f_line o)
       (flds_rev o) (seen o) (dups o).
Definition add_v (t : str) (o : openb) : openb :=
  mkob (b_line o) (rev t ++ raw_rev o) (typ_rev o) (a_rev o) (rev t ++ v_rev o) (etyp o) (ekey o) (f_line o)
       (flds_rev o) (seen o) (dups o).
Lemma add_typ_nil o : add_typ [] o = o.  Proof. destruct o; reflexivity. Qed.
Lemma add_a_nil o : add_a [] o = o.      Proof. destruct o; reflexivity. Qed.
Lemma add_v_nil o : add_v [] o = o.      Proof. destruct o; reflexivity. Qed.
Lemma add_typ_cons c t o : add_typ t (ob_raw_typ c o) = add_typ (c :: t) o.
Proof.
  unfold add_typ. cbn [ob_raw_typ b_line raw_rev typ_rev a_rev v_rev etyp ekey f_line flds_rev seen dups rev].
  rewrite <- !app_assoc. reflexivity.
Qed.
Lemma add_a_cons c t o : add_a t (ob_raw_a c o) = add_a (c :: t) o.
Proof.
  unfold add_a. cbn [ob_raw_a b_line raw_rev typ_rev a_rev v_rev etyp ekey f_line flds_rev seen dups rev].
  rewrite <- !app_assoc. reflexivity.
Qed.
Lemma add_v_cons c t o : add_v t (ob_raw_v c o) = add_v (c :: t) o.
Proof.
  unfold add_v. cbn [ob_raw_v b_line raw_rev typ_rev a_rev v_rev etyp ekey f_line flds_rev seen dups rev].
  rewrite <- !app_assoc. reflexivity.
Qed.

(* the characters of an '@' head: word characters and blanks, none of them a mark *)
Definition plainw (c : ch) : bool := isword c || is_sptab c.
Lemma plainw_cls pb c r : plainw c = true -> classify1 pb c r = None /\ (c =? c_bs)%N = false.
Proof.
  unfold plainw. intros H. apply orb_true_iff in H as [H|H].
  - split; [apply word_plain, H | apply word_not_bs, H].
  - split; [apply sptab_plain, H | apply sptab_not_bs, H].
Qed.
Lemma ends_bs_plainw t : forall pb, forallb plainw t = true -> pb = false -> ends_bs pb t = false.
Proof.
  induction t as [|c t IH]; intros pb H Hpb; cbn [ends_bs]; [exact Hpb|].
  cbn [forallb] in H. apply andb_true_iff in H as [Hc Ht]. apply IH; [exact Ht|].
  apply (plainw_cls false c []), Hc.
Qed.
Lemma run_head t : forall pb rest ln o ic icl O, forallb plainw t = true ->
  runf pb (t ++ rest) (mkst Head ln o ic icl O) = runf (ends_bs pb t) rest (mkst Head ln o ic icl (add_typ t O)).
Proof.
  induction t as [|c t IH]; intros pb rest ln o ic icl O H; cbn [app runf ends_bs].
  - rewrite add_typ_nil. reflexivity.
  - cbn [forallb] in H. apply andb_true_iff in H as [Hc Ht].
    destruct (plainw_cls pb c (t ++ rest) Hc) as [-> _]. rewrite <- add_typ_cons, <- (IH _ _ _ _ _ _ _ Ht). reflexivity.
Qed.

(* text without active delimiters other than newlines: every key and value mode merely accumulates it *)
Fixpoint quiet (pb : bool) (t : str) : bool :=
  match t with
  | [] => true
  | c :: r => match delim pb c with None | Some MNL => true | _ => false end && quiet (c =? c_bs)%N r
  end.
(* key and value modes read text: a character of class k that mode m only accumulates, and the mode afterwards
   (InBraces counts braces; FldVal also tracks whether a quote is open) *)
Definition flat1 (m : mode) (k : option mk) : option mode :=
  match m with
  | StrKey | EntKey | FldKey => match k with None | Some MNL => Some m | _ => None end
  | InBraces kd d =>
      match k with
      | Some MLB => Some (InBraces kd (d + 1))
      | Some MRB => if (d =? 0)%N then None else Some (InBraces kd (d - 1))
      | Some MAt => None
      | _ => Some m
      end
  | FldVal q d =>
      match k with
      | None | Some MEq | Some MNL => Some m
      | Some MQ => Some (if (d =? 0)%N then FldVal (negb q) d else m)
      | Some MLB => Some (if q then m else FldVal q (d + 1))
      | Some MRB => if q then Some m else if (d =? 0)%N then None else Some (FldVal q (d - 1))
      | Some MComma => if q || negb (d =? 0)%N then Some m else None
      | Some MAt => None
      end
  | _ => None
  end.
Fixpoint flat (pb : bool) (t : str) (m : mode) : option mode :=
  match t with
  | [] => Some m
  | c :: r => match flat1 m (delim pb c) with Some m' => flat (c =? c_bs)%N r m' | None => None end
  end.
Lemma flat_app t1 : forall pb t2 m,
  flat pb (t1 ++ t2) m = match flat pb t1 m with Some m' => flat (ends_bs pb t1) t2 m' | None => None end.
Proof.
  induction t1 as [|c t1 IH]; intros pb t2 m; cbn [app flat ends_bs]; [reflexivity|].
  destruct (flat1 m (delim pb c)); [apply IH | reflexivity].
Qed.

(* the accumulator of a mode *)
Definition acc (m : mode) : str -> openb -> openb :=
  match m with StrKey | EntKey | FldKey => add_a | InBraces _ _ | FldVal _ _ => add_v | _ => fun _ o => o end.
Lemma acc_nil m o : acc m [] o = o.
Proof. destruct m; first [reflexivity | apply add_a_nil | apply add_v_nil]. Qed.
Lemma acc_cons m c t o : acc m t (acc m [c] o) = acc m (c :: t) o.
Proof. destruct m; first [reflexivity | apply (add_a_cons c t o) | apply (add_v_cons c t o)]. Qed.

Lemma step_flat m k m1 c ln o ic icl O :
  flat1 m k = Some m1 -> (k = Some MNL -> c = c_nl) -> (k <> Some MNL -> (c =? c_nl)%N = false) ->
  step (mkst m ln o ic icl O) (c, k) = mkst m1 (ln + (if (c =? c_nl)%N then 1 else 0)) o ic icl (acc m [c] O)
  /\ acc m1 = acc m.
Proof.
  intros H Hn Hc.
  assert (L : ln + (if (c =? c_nl)%N then 1 else 0) = match k with Some MNL => ln + 1 | _ => ln end).
  { destruct k as [[]|]; try (rewrite Hc by discriminate; apply Z.add_0_r). rewrite (Hn eq_refl). reflexivity. }
  rewrite L. clear L Hn Hc.
  destruct m as [| |kd d| | | |q d|]; try discriminate H; destruct k as [[]|]; cbn [flat1] in H; try discriminate H;
    cbn [step md acc]; try (injection H as <-; split; reflexivity).
  - destruct (d =? 0)%N; [discriminate|]. injection H as <-. split; reflexivity.
  - injection H as <-. destruct q; split; reflexivity.
  - destruct q; [|destruct (d =? 0)%N; [discriminate|]]; injection H as <-; split; reflexivity.
  - injection H as <-. destruct (d =? 0)%N; split; reflexivity.
  - destruct (q || negb (d =? 0)%N); [|discriminate]. injection H as <-. split; reflexivity.
Qed.

Lemma run_flat t : forall m pb rest ln o ic icl O m', noat t rest = true -> flat pb t m = Some m' ->
  runf pb (t ++ rest) (mkst m ln o ic icl O)
  = runf (ends_bs pb t) rest (mkst m' (ln + count_nl t) o ic icl (acc m t O)).
Proof.
  induction t as [|c t IH]; intros m pb rest ln o ic icl O m' Hn Hf; cbn [app runf ends_bs flat] in *.
  - injection Hf as <-. rewrite acc_nil, Z.add_0_r. reflexivity.
  - cbn [noat] in Hn. apply andb_true_iff in Hn as [Hc Hn].
    destruct (flat1 m (delim pb c)) as [m1|] eqn:F; [|discriminate].
    destruct (step_flat m _ m1 c ln o ic icl O F (delim_char pb c MNL) (delim_not_nl pb c)) as [E A].
    rewrite (classify1_delim pb c _ Hc), E, (IH m1 _ _ _ _ _ _ _ m' Hn Hf), A, acc_cons, count_nl_cons, Z.add_assoc.
    reflexivity.
Qed.

(* the modes that read a key or a value *)
Definition textmode (m : mode) : bool :=
  match m with StrKey | EntKey | FldKey | InBraces _ _ | FldVal _ _ => true | _ => false end.
Lemma flat_quiet t : forall pb m, quiet pb t = true -> textmode m = true -> flat pb t m = Some m.
Proof.
  induction t as [|c t IH]; intros pb m H Hm; cbn [flat]; [reflexivity|].
  cbn [quiet] in H. apply andb_true_iff in H as [Hc Ht].
  assert (E : flat1 m (delim pb c) = Some m)
    by (destruct (delim pb c) as [[]|]; try discriminate Hc; destruct m; try discriminate Hm; reflexivity).
  rewrite E. apply IH; assumption.
Qed.

Lemma is_ws_rev w : is_ws (rev w) = is_ws w.
Proof.
  induction w as [|c w IH]; [reflexivity|]. cbn [rev]. rewrite is_ws_app, IH. cbn [is_ws forallb].
  rewrite andb_true_r. apply andb_comm.
Qed.
Lemma lstrip_ws w s : is_ws w = true -> lstrip (w ++ s) = lstrip s.
Proof.
  induction w as [|c w IH]; intros H; cbn [app lstrip]; [reflexivity|].
  cbn [is_ws forallb] in H. apply andb_true_iff in H as [Hc Hw]. rewrite Hc. apply IH, Hw.
Qed.
Lemma lstrip_head c s : isspace c = false -> lstrip (c :: s) = c :: s.
Proof. intros H. cbn [lstrip]. rewrite H. reflexivity. Qed.
Lemma rstrip_ws s w : is_ws w = true -> rstrip (s ++ w) = rstrip s.
Proof.
  intros H. unfold rstrip. rewrite !rv_rev, rev_app_distr, lstrip_ws; [reflexivity|]. rewrite is_ws_rev. exact H.
Qed.
Lemma strip_app_ws s w : is_ws w = true -> strip (s ++ w) = strip s.
Proof.
  intros H. unfold strip. induction s as [|c s IH]; cbn [app].
  - rewrite <- (app_nil_r w), (lstrip_ws w [] H). reflexivity.
  - cbn [lstrip]. destruct (isspace c); [exact IH|]. apply (rstrip_ws (c :: s) w H).
Qed.
Lemma rstrip_last s c : isspace c = false -> rstrip (s ++ [c]) = s ++ [c].
Proof.
  intros H. unfold rstrip. rewrite !rv_rev, rev_unit, (lstrip_head _ _ H). rewrite <- (rev_unit s c). apply rev_involutive.
Qed.
(* tight: the first and the last character are not blank *)
Definition fst_ns (s : str) : Prop := exists c s', s = c :: s' /\ isspace c = false.
Definition lst_ns (s : str) : Prop := exists s0 x, s = s0 ++ [x] /\ isspace x = false.
Lemma tight_intro s : fst_ns s -> lst_ns s -> tight s = true.
Proof.
  intros (c & s' & -> & Hc) (s0 & x & E2 & Hx). unfold tight. rewrite Hc, E2, last_last, Hx. reflexivity.
Qed.
Lemma tight_elim s : tight s = true -> fst_ns s /\ lst_ns s.
Proof.
  destruct s as [|c s']; [discriminate|]. intros H. unfold tight in H. apply andb_true_iff in H as [H1 H2].
  apply negb_true_iff in H1, H2.
  destruct (@exists_last _ (c :: s')) as (s0 & x & E); [discriminate|].
  split; [exists c, s' | exists s0, x]; split; auto. rewrite E, last_last in H2. exact H2.
Qed.
Lemma lstrip_fst s r : fst_ns s -> lstrip (s ++ r) = s ++ r.
Proof. intros (c & s' & -> & Hc). apply lstrip_head, Hc. Qed.
Lemma rstrip_lst s : lst_ns s -> rstrip s = s.
Proof. intros (s0 & x & -> & Hx). apply rstrip_last, Hx. Qed.
Lemma strip_tight w1 s w2 : is_ws w1 = true -> is_ws w2 = true -> tight s = true -> strip (w1 ++ s ++ w2) = s.
Proof.
  intros H1 H2 Ht. destruct (tight_elim s Ht) as [F L].
  unfold strip. rewrite (lstrip_ws _ _ H1), (lstrip_fst _ _ F), (rstrip_ws _ _ H2). apply rstrip_lst, L.
Qed.

Lemma strip_tight_id s : tight s = true -> strip s = s.
Proof. intros H. pose proof (strip_tight [] s [] eq_refl eq_refl H) as E. cbn [app] in E. rewrite app_nil_r in E. exact E. Qed.

(* flush_ic on the pending implicit comment P given in reading order *)
Definition flushl (o : list block) (P : str) (icl : Z) : list block :=
  match end_implicit P icl with Some b => b :: o | None => o end.
Lemma flush_ic_l ln o P icl B : flush_ic (mkst Out ln o (rev P) icl B) = flushl o P icl.
Proof. unfold flush_ic, flushl. cbn [ic_rev ic_line out_rev]. rewrite rv_rev, rev_involutive. reflexivity. Qed.
Lemma skip_leading_ws w : forall s n, is_ws w = true -> skip_leading (w ++ s) n = skip_leading s (n + count_nl w).
Proof.
  induction w as [|c w IH]; intros s n H; cbn [app skip_leading count_nl]; [rewrite Z.add_0_r; reflexivity|].
  cbn [is_ws forallb] in H. apply andb_true_iff in H as [Hc Hw].
  destruct (c =? c_nl)%N; [|rewrite Hc]; rewrite (IH _ _ Hw); f_equal; lia.
Qed.
Lemma end_implicit_ws P icl : is_ws P = true -> end_implicit P icl = None.
Proof.
  intros H. unfold end_implicit. rewrite <- (app_nil_r P), (skip_leading_ws _ _ _ H). reflexivity.
Qed.
Lemma end_implicit_free P t g icl : is_ws P = true -> is_ws g = true -> tight t = true ->
  end_implicit (P ++ t ++ g) icl = Some (BImpl (mkhdr (Some (icl + count_nl P)) (Some t) []) t).
Proof.
  intros HP Hg Ht. destruct (tight_elim t Ht) as [(c & s' & E1 & Hc) L].
  unfold end_implicit. rewrite (skip_leading_ws _ _ _ HP).
  assert (E : skip_leading (t ++ g) (0 + count_nl P) = (t ++ g, 0 + count_nl P)).
  { rewrite E1. cbn [app skip_leading]. rewrite Hc.
    destruct (c =? c_nl)%N eqn:En; [apply N.eqb_eq in En; subst c; discriminate Hc | reflexivity]. }
  rewrite E, (rstrip_ws _ _ Hg), (rstrip_lst _ L), E1, Z.add_0_l. reflexivity.
Qed.

Lemma starts_with_app_blank p : forall a b,
  (forall x y, In x p -> In y b -> (x =? y)%N = false) -> starts_with p (a ++ b) = starts_with p a.
Proof.
  induction p as [|x p IH]; intros a b H; [destruct a; reflexivity|].
  destruct a as [|z a]; cbn [app starts_with].
  - destruct b as [|y b]; [reflexivity|]. rewrite (H x y); [reflexivity | left; reflexivity | left; reflexivity].
  - rewrite IH; [reflexivity|]. intros x' y' Hx Hy. apply H; [right; exact Hx | exact Hy].
Qed.
Lemma lower_sptab c : is_sptab c = true -> lower_ch c = c.
Proof. intros H. destruct (sptab_cases c H); subst; reflexivity. Qed.
Lemma starts_with_hws p a b : forallb (fun x => negb (is_sptab x)) p = true -> is_hws b = true ->
  starts_with p (lower (a ++ b)) = starts_with p (lower a).
Proof.
  intros Hp Hb. unfold lower. rewrite map_app. apply starts_with_app_blank.
  intros x y Hx Hy. apply in_map_iff in Hy as (c & <- & Hc).
  unfold is_hws in Hb. rewrite forallb_forall in Hp, Hb. specialize (Hp x Hx). specialize (Hb c Hc).
  rewrite (lower_sptab c Hb). apply negb_true_iff in Hp.
  destruct (x =? c)%N eqn:E; [|reflexivity]. apply N.eqb_eq in E. subst. congruence.
Qed.
Lemma kw_noblank : forallb (fun x => negb (is_sptab x)) s_comment = true
  /\ forallb (fun x => negb (is_sptab x)) s_preamble = true /\ forallb (fun x => negb (is_sptab x)) s_string = true.
Proof. repeat split; reflexivity. Qed.
(* prefixes that begin with different characters exclude each other; the three keywords do *)
Lemma starts_with_excl p q l :
  match p, q with x :: _, y :: _ => (y =? x)%N = false | _, _ => False end ->
  starts_with p l = true -> starts_with q l = false.
Proof.
  destruct p as [|x p], q as [|y q]; try contradiction. intros N H.
  destruct l as [|z l]; [discriminate H|]. cbn [starts_with] in *. apply andb_true_iff in H as [H _].
  apply N.eqb_eq in H. subst z. rewrite N. reflexivity.
Qed.
Lemma kw_excl l :
  (starts_with s_preamble l = true -> starts_with s_comment l = false)
  /\ (starts_with s_string l = true -> starts_with s_comment l = false /\ starts_with s_preamble l = false).
Proof.
  split; [apply starts_with_excl; reflexivity|]. intros H.
  split; revert H; apply starts_with_excl; reflexivity.
Qed.

Lemma drop_while_all p a : forall b, forallb p a = true -> drop_while p (a ++ b) = drop_while p b.
Proof.
  induction a as [|c a IH]; intros b H; cbn [app]; [reflexivity|].
  cbn [forallb] in H. apply andb_true_iff in H as [Hc Ha]. cbn [drop_while]. rewrite Hc. apply IH, Ha.
Qed.
Lemma sptab_not_word c : is_sptab c = true -> isword c = false.
Proof. intros H. destruct (sptab_cases c H); subst; reflexivity. Qed.
Lemma at_ok_head w h r : forallb isword w = true -> is_hws h = true -> at_ok (w ++ h ++ c_lb :: r) = true.
Proof.
  intros Hw Hh. unfold at_ok. rewrite (drop_while_all isword w _ Hw).
  assert (E : drop_while isword (h ++ c_lb :: r) = h ++ c_lb :: r).
  { destruct h as [|c h]; [reflexivity|]. cbn [app drop_while]. cbn [is_hws forallb] in Hh.
    apply andb_true_iff in Hh as [Hc _]. rewrite (sptab_not_word c Hc). reflexivity. }
  rewrite E, (drop_while_all is_sptab h _ Hh). reflexivity.
Qed.
Lemma plainw_head w h : forallb isword w = true -> is_hws h = true -> forallb plainw (w ++ h) = true.
Proof.
  intros Hw Hh. rewrite forallb_app. apply andb_true_iff. unfold is_hws in Hh. rewrite forallb_forall in Hw, Hh.
  split; apply forallb_forall; intros x Hx; unfold plainw; [rewrite (Hw x Hx) | rewrite (Hh x Hx), orb_true_r]; reflexivity.
Qed.
Lemma space_delim pb c : isspace c = true -> delim pb c = None \/ delim pb c = Some MNL.
Proof.
  intros H. destruct (delim pb c) as [k|] eqn:D; [right | left; reflexivity].
  apply delim_char in D. subst c. destruct k; try discriminate H. reflexivity.
Qed.
Lemma quiet_app a : forall pb b, quiet pb (a ++ b) = quiet pb a && quiet (ends_bs pb a) b.
Proof.
  induction a as [|c a IH]; intros pb b; cbn [app quiet ends_bs]; [reflexivity|]. rewrite IH, andb_assoc. reflexivity.
Qed.
Lemma quiet_ws w : forall pb, is_ws w = true -> quiet pb w = true.
Proof.
  induction w as [|c w IH]; intros pb H; cbn [quiet]; [reflexivity|].
  cbn [is_ws forallb] in H. apply andb_true_iff in H as [Hc Hw]. rewrite (IH _ Hw), andb_true_r.
  destruct (space_delim pb c Hc) as [-> | ->]; reflexivity.
Qed.
Lemma no_delim_none pb c : no_delim pb c = true -> delim pb c = None.
Proof. unfold no_delim. destruct (delim pb c); [discriminate | reflexivity]. Qed.
Lemma quiet_kchars s : forall pb, kchars pb s = true -> quiet pb s = true.
Proof.
  induction s as [|c s IH]; intros pb H; cbn [quiet]; [reflexivity|].
  cbn [kchars] in H. band H. destruct H as [[_ Hd] Hs]. rewrite (no_delim_none _ _ Hd), (IH _ Hs). reflexivity.
Qed.
Lemma kchars_nospace s : forall pb, kchars pb s = true -> forallb (fun c => negb (isspace c)) s = true.
Proof.
  induction s as [|c s IH]; intros pb H; cbn [forallb]; [reflexivity|].
  cbn [kchars] in H. band H. destruct H as [[Hc _] Hs]. rewrite Hc, (IH _ Hs). reflexivity.
Qed.
Lemma tight_nospace s : nonnil s = true -> forallb (fun c => negb (isspace c)) s = true -> tight s = true.
Proof.
  intros Hn H. destruct s as [|c s']; [discriminate|]. unfold tight.
  rewrite forallb_forall in H. rewrite (H c (or_introl eq_refl)). cbn [andb].
  destruct (@exists_last _ (c :: s')) as (s0 & x & E); [discriminate|]. rewrite E, last_last.
  apply H. rewrite E. apply in_or_app. right. left. reflexivity.
Qed.
Lemma name_tight s : name_ok s = true -> tight s = true.
Proof.
  unfold name_ok. intros H. apply andb_true_iff in H as [Hn Hk]. apply tight_nospace; [exact Hn|].
  apply (kchars_nospace s false Hk).
Qed.
Lemma isspace_lower c : isspace (lower_ch c) = isspace c.
Proof.
  unfold lower_ch. destruct ((asc 65 <=? c)%N && (c <=? asc 90)%N && (N.land c 127 =? 22)%N) eqn:E; [|reflexivity].
  apply andb_true_iff in E as [_ E]. apply N.eqb_eq in E.
  assert (H0 : N.testbit c 0 = false).
  { assert (H := N.land_spec c 127 0). rewrite E in H. cbn in H. rewrite andb_true_r in H. symmetry. exact H. }
  unfold isspace. rewrite H0, N.bit0_odd, N.odd_add, <- N.bit0_odd, H0. reflexivity.
Qed.

Lemma runf_at pb r ln o P icl B : at_ok r = true ->
  runf pb (c_at :: r) (mkst Out ln o (rev P) icl B) = runf false r (mkst Head ln (flushl o P icl) [] ln (ob0 ln c_at)).
Proof.
  intros H. cbn [runf]. rewrite classify1_at, H. cbn [step md step_out]. rewrite flush_ic_l. reflexivity.
Qed.
(* where '{' leads from Head mode when the text after '@' is T: the mode, and the entry type recorded *)
Definition head_target (T : str) : mode * str :=
  let ty := lower T in
  if starts_with s_comment ty then (InBraces KComment 0, [])
  else if starts_with s_preamble ty then (InBraces KPreamble 0, [])
  else if starts_with s_string ty then (StrKey, [])
  else (EntKey, strip ty).
Lemma step_head_lb r ln o ic icl O :
  runf false (c_lb :: r) (mkst Head ln o ic icl O)
  = runf false r (mkst (fst (head_target (rv (typ_rev O)))) ln o ic icl
                    (ob_open c_lb (snd (head_target (rv (typ_rev O)))) O)).
Proof.
  cbn [runf]. change (classify1 false c_lb r) with (Some MLB). change (c_lb =? c_bs)%N with false. f_equal.
  unfold step, head_target. cbn [md Splitter.ob].
  destruct (starts_with s_comment (lower (rv (typ_rev O)))); [reflexivity|].
  destruct (starts_with s_preamble (lower (rv (typ_rev O)))); [reflexivity|].
  destruct (starts_with s_string (lower (rv (typ_rev O)))); reflexivity.
Qed.
Lemma sptab_space c : is_sptab c = true -> isspace c = true.
Proof. intros H. destruct (sptab_cases c H); subst; reflexivity. Qed.
Lemma hws_ws h : is_hws h = true -> is_ws h = true.
Proof.
  unfold is_hws, is_ws. rewrite !forallb_forall. intros H x Hx. apply sptab_space, H, Hx.
Qed.
Lemma lower_hws h : is_hws h = true -> lower h = h.
Proof.
  induction h as [|c h IH]; intros H; [reflexivity|]. cbn [is_hws forallb] in H. apply andb_true_iff in H as [Hc Hh].
  cbn [lower map]. rewrite (lower_sptab c Hc). f_equal. apply IH, Hh.
Qed.
Lemma head_target_hws kw h : is_hws h = true -> head_target (kw ++ h) = head_target kw.
Proof.
  intros Hh. unfold head_target. destruct kw_noblank as (K1 & K2 & K3).
  rewrite (starts_with_hws _ kw h K1 Hh), (starts_with_hws _ kw h K2 Hh), (starts_with_hws _ kw h K3 Hh).
  unfold lower at 4. rewrite map_app. fold (lower kw). fold (lower h). rewrite (lower_hws h Hh), (strip_app_ws _ h (hws_ws h Hh)).
  reflexivity.
Qed.
Lemma typ_tight typ : typ_ok typ = true -> tight (lower typ) = true /\ forallb isword typ = true.
Proof.
  unfold typ_ok. intros H. apply andb_true_iff in H as [Hn H]. rewrite forallb_forall in H. split.
  - apply tight_nospace; [destruct typ; [discriminate | reflexivity]|].
    apply forallb_forall. intros x Hx. apply in_map_iff in Hx as (c & <- & Hc).
    rewrite isspace_lower. specialize (H c Hc). apply andb_true_iff in H as [_ H]. exact H.
  - apply forallb_forall. intros x Hx. specialize (H x Hx). apply andb_true_iff in H as [H _]. exact H.
Qed.
(* which block a keyword opens *)
Lemma head_target_comment kw : starts_with s_comment (lower kw) = true -> head_target kw = (InBraces KComment 0, []).
Proof. intros H. unfold head_target. rewrite H. reflexivity. Qed.
Lemma head_target_preamble kw : starts_with s_preamble (lower kw) = true -> head_target kw = (InBraces KPreamble 0, []).
Proof. intros H. unfold head_target. rewrite (proj1 (kw_excl _) H), H. reflexivity. Qed.
Lemma head_target_string kw : starts_with s_string (lower kw) = true -> head_target kw = (StrKey, []).
Proof. intros H. unfold head_target. destruct (proj2 (kw_excl _) H) as [-> ->]. rewrite H. reflexivity. Qed.
Lemma head_target_entry typ : typ_ok typ = true ->
  starts_with s_comment (lower typ) = false -> starts_with s_preamble (lower typ) = false ->
  starts_with s_string (lower typ) = false -> head_target typ = (EntKey, lower typ).
Proof.
  intros Ht S1 S2 S3. unfold head_target. rewrite S1, S2, S3, (strip_tight_id _ (proj1 (typ_tight typ Ht))). reflexivity.
Qed.
Lemma rv_rev_id (l : str) : rv (rev l) = l.
Proof. rewrite rv_rev. apply rev_involutive. Qed.

(* the open block once the head '@' w h '{' has been read *)
Definition opened (ln : Z) (w : str) (ty : str) : openb := ob_open c_lb ty (add_typ w (ob0 ln c_at)).
Lemma run_at_head w h r pb ln o P icl B : forallb isword w = true -> is_hws h = true ->
  runf pb (c_at :: w ++ h ++ c_lb :: r) (mkst Out ln o (rev P) icl B)
  = runf false r (mkst (fst (head_target w)) ln (flushl o P icl) [] ln (opened ln (w ++ h) (snd (head_target w)))).
Proof.
  intros Hw Hh. rewrite (runf_at pb _ ln o P icl B (at_ok_head w h r Hw Hh)).
  rewrite app_assoc, (run_head (w ++ h)) by (apply plainw_head; assumption).
  rewrite (ends_bs_plainw (w ++ h) false) by (try apply plainw_head; auto).
  rewrite step_head_lb. cbn [typ_rev add_typ ob0]. rewrite app_nil_r, rv_rev_id, (head_target_hws w h Hh). reflexivity.
Qed.
Lemma count_nl_plainw t : forallb plainw t = true -> count_nl t = 0.
Proof.
  induction t as [|c t IH]; intros H; [reflexivity|]. cbn [forallb] in H. apply andb_true_iff in H as [Hc Ht].
  rewrite count_nl_cons, (IH Ht). destruct (c =? c_nl)%N eqn:E; [|reflexivity].
  apply N.eqb_eq in E. subst c. discriminate Hc.
Qed.
Lemma count_nl_head kw h t : forallb isword kw = true -> is_hws h = true ->
  count_nl (c_at :: kw ++ h ++ c_lb :: t) = count_nl t.
Proof.
  intros Hkw Hh. rewrite app_assoc, count_nl_cons, count_nl_app, (count_nl_plainw (kw ++ h)) by (apply plainw_head; assumption).
  rewrite count_nl_cons. reflexivity.
Qed.
Lemma count_nl_rb t : count_nl (t ++ [c_rb]) = count_nl t.
Proof. rewrite count_nl_app. cbn. lia. Qed.
Lemma quiet_key w1 key w2 : is_ws w1 = true -> name_ok key = true -> is_ws w2 = true ->
  quiet false (w1 ++ key ++ w2) = true.
Proof.
  intros H1 Hk H2. unfold name_ok in Hk. apply andb_true_iff in Hk as [_ Hk].
  rewrite !quiet_app, (quiet_ws w1 _ H1), (ends_bs_ws w1 false H1 eq_refl), (quiet_kchars key _ Hk), (quiet_ws w2 _ H2).
  reflexivity.
Qed.
Lemma ends_bs_key w1 key w2 : is_ws w1 = true -> ends_bs false (key ++ w2) = false ->
  ends_bs false (w1 ++ key ++ w2) = false.
Proof. intros H1 H. rewrite ends_bs_app, (ends_bs_ws w1 false H1 eq_refl). exact H. Qed.
Lemma count_nl_entry_head typ h w1 key w2 : forallb isword typ = true -> is_hws h = true ->
  count_nl (entry_head typ h w1 key w2) = count_nl (w1 ++ key ++ w2).
Proof.
  intros Ht Hh. unfold entry_head. rewrite app_assoc, count_nl_app, (count_nl_plainw (typ ++ h)) by (apply plainw_head; assumption).
  rewrite count_nl_cons. reflexivity.
Qed.

(* Value modes.  [inert]: a comma does not end the value; [deep]: nor does a quote toggle; [top]: where a value
   starts.  Braces lead from any value mode to an inert one and back, quotes from a top mode. *)
Definition inert (m : mode) : bool :=
  match m with InBraces _ _ => true | FldVal q d => q || negb (d =? 0)%N | _ => false end.
Definition deep (m : mode) : bool :=
  match m with InBraces _ _ => true | FldVal _ d => negb (d =? 0)%N | _ => false end.
Definition top (m : mode) : bool :=
  match m with InBraces _ _ => true | FldVal q d => negb q && (d =? 0)%N | _ => false end.
Lemma deep_inert m : deep m = true -> inert m = true.
Proof. destruct m; try discriminate; [reflexivity|]. cbn [deep inert]. intros ->. apply orb_true_r. Qed.
Lemma top_textmode m : top m = true -> textmode m = true.
Proof. destruct m; try discriminate; reflexivity. Qed.
Lemma flat1_inert m k : inert m = true ->
  match k with None | Some MComma | Some MEq | Some MNL => flat1 m k = Some m | _ => True end.
Proof.
  destruct m as [| |kd d| | | |q d|]; try discriminate; intros H; destruct k as [[]|]; try exact I; try reflexivity.
  cbn [inert] in H. cbn [flat1]. rewrite H. reflexivity.
Qed.
Lemma flat1_deep_quote m : deep m = true -> flat1 m (Some MQ) = Some m.
Proof.
  destruct m as [| |kd d| | | |q d|]; try discriminate; [reflexivity|]. cbn [deep flat1]. intros H.
  apply negb_true_iff in H. rewrite H. reflexivity.
Qed.
Lemma add1_back d : ((d + 1 =? 0) = false /\ d + 1 - 1 = d)%N.
Proof. split; [apply N.eqb_neq|]; lia. Qed.
Lemma flat1_braces m : inert m = true \/ top m = true ->
  exists m1, flat1 m (Some MLB) = Some m1 /\ flat1 m1 (Some MRB) = Some m /\ inert m1 = true
             /\ (deep m = true \/ top m = true -> deep m1 = true).
Proof.
  destruct m as [| |kd d| | | |q d|]; try (intros [H|H]; discriminate H); intros _; destruct (add1_back d) as [Z B].
  - exists (InBraces kd (d + 1)). cbn [flat1]. rewrite Z, B. auto.
  - destruct q.
    + exists (FldVal true d). cbn [flat1 inert deep top andb negb orb]. repeat split. intros [H|H]; [exact H | discriminate H].
    + exists (FldVal false (d + 1)). cbn [flat1 inert deep orb]. rewrite Z, B. auto.
Qed.
Lemma flat1_quotes m : top m = true ->
  exists m1, flat1 m (Some MQ) = Some m1 /\ flat1 m1 (Some MQ) = Some m /\ inert m1 = true.
Proof.
  destruct m as [| |kd d| | | |q d|]; try discriminate; intros H.
  - exists (InBraces kd d). auto.
  - cbn [top] in H. apply andb_true_iff in H as [Hq Hd]. apply negb_true_iff in Hq. apply N.eqb_eq in Hd. subst q d.
    exists (FldVal true 0). auto.
Qed.

(* text g between an opening and a closing mark that lead from m to m1 and back: if g leaves m1 alone, the
   whole leaves m alone *)
Lemma enclosed_flat c1 c2 m m1 g r :
  flat1 m (delim false c1) = Some m1 -> flat1 m1 (delim false c2) = Some m ->
  (c1 =? c_bs)%N = false -> (c2 =? c_bs)%N = false ->
  flat false g m1 = Some m1 -> ends_bs false g = false ->
  flat false (c1 :: g ++ c2 :: r) m = flat false r m /\ ends_bs false (c1 :: g ++ c2 :: r) = ends_bs false r.
Proof.
  intros E1 E2 B1 B2 G1 G2. cbn [flat ends_bs]. rewrite E1, B1, flat_app, G1, G2, ends_bs_app, G2.
  cbn [flat ends_bs]. rewrite E2, B2. split; reflexivity.
Qed.

(* well-formed content brings the mode back to where it started *)
Lemma braced_flat b : forall pb m, deep m = true -> wf_braced pb b = true ->
  flat pb (render_braced b) m = Some m /\ ends_bs pb (render_braced b) = false.
Proof.
  induction b as [|c b IH|g IHg b IHb]; intros pb m Hm H; cbn [render_braced wf_braced] in *.
  - apply negb_true_iff in H. subst pb. split; reflexivity.
  - apply andb_true_iff in H as [Hc Hb]. cbn [flat ends_bs].
    assert (E : flat1 m (delim pb c) = Some m).
    { pose proof (flat1_inert m (delim pb c) (deep_inert m Hm)) as I1.
      destruct (delim pb c) as [[]|] eqn:D; try discriminate Hc; try exact I1.
      - apply flat1_deep_quote, Hm.
      - exfalso. exact (delim_not_at _ _ D). }
    rewrite E. apply IH; assumption.
  - band H. destruct H as [[Hpb Hg] Hb]. subst pb.
    destruct (flat1_braces m (or_introl (deep_inert m Hm))) as (m1 & E1 & E2 & _ & D1).
    destruct (IHg false m1 (D1 (or_introl Hm)) Hg) as [G1 G2].
    destruct (enclosed_flat c_lb c_rb m m1 _ (render_braced b) E1 E2 eq_refl eq_refl G1 G2) as [-> ->].
    apply IHb; assumption.
Qed.
Lemma quoted_flat q : forall pb m, inert m = true -> wf_quoted pb q = true ->
  flat pb (render_quoted q) m = Some m /\ ends_bs pb (render_quoted q) = false.
Proof.
  induction q as [|c q IH|g IHg q IHq]; intros pb m Hm H; cbn [render_quoted wf_quoted] in *.
  - apply negb_true_iff in H. subst pb. split; reflexivity.
  - apply andb_true_iff in H as [Hc Hq]. cbn [flat ends_bs].
    assert (E : flat1 m (delim pb c) = Some m).
    { pose proof (flat1_inert m (delim pb c) Hm) as I1.
      destruct (delim pb c) as [[]|] eqn:D; try discriminate Hc; try exact I1. exfalso. exact (delim_not_at _ _ D). }
    rewrite E. apply IH; assumption.
  - band H. destruct H as [[Hpb Hg] Hq]. subst pb.
    destruct (flat1_braces m (or_introl Hm)) as (m1 & E1 & E2 & I1 & _).
    destruct (IHg false m1 I1 Hg) as [G1 G2].
    destruct (enclosed_flat c_lb c_rb m m1 _ (render_quoted q) E1 E2 eq_refl eq_refl G1 G2) as [-> ->].
    apply IHq; assumption.
Qed.
Lemma piece_flat p m : top m = true -> wf_piece p = true -> flat false (render_piece p) m = Some m.
Proof.
  intros Hm. destruct p as [s|b|q]; cbn [wf_piece render_piece]; intros H.
  - unfold name_ok in H. band H. destruct H as [[_ Hk] _].
    apply flat_quiet; [apply quiet_kchars, Hk | apply top_textmode, Hm].
  - destruct (flat1_braces m (or_intror Hm)) as (m1 & E1 & E2 & _ & D1).
    destruct (braced_flat b false m1 (D1 (or_intror Hm)) H) as [B1 B2].
    apply (enclosed_flat c_lb c_rb m m1 _ [] E1 E2 eq_refl eq_refl B1 B2).
  - destruct (flat1_quotes m Hm) as (m1 & E1 & E2 & I1). destruct (quoted_flat q false m1 I1 H) as [Q1 Q2].
    apply (enclosed_flat c_quote c_quote m m1 _ [] E1 E2 eq_refl eq_refl Q1 Q2).
Qed.
Lemma delim_hash pb : delim pb c_hash = None.
Proof. destruct pb; reflexivity. Qed.
Lemma quiet_sep a b : forall pb, is_ws a = true -> is_ws b = true ->
  quiet pb (a ++ c_hash :: b) = true /\ ends_bs pb (a ++ c_hash :: b) = false.
Proof.
  intros pb Ha Hb. split.
  - rewrite quiet_app, (quiet_ws a _ Ha). cbn [quiet andb]. rewrite delim_hash. apply quiet_ws, Hb.
  - rewrite ends_bs_app. cbn [ends_bs]. apply ends_bs_ws; [exact Hb | reflexivity].
Qed.
Lemma more_flat l : forall pb m, top m = true -> wf_more l = true -> flat pb (render_more l) m = Some m.
Proof.
  induction l as [|[[a b] p] r IH]; intros pb m Hm H; cbn [render_more wf_more] in *; [reflexivity|].
  band H. destruct H as [[[Ha Hb] Hp] Hr]. destruct (quiet_sep a b pb Ha Hb) as [Hq He].
  change (a ++ c_hash :: b ++ render_piece p ++ render_more r) with (a ++ (c_hash :: b) ++ render_piece p ++ render_more r).
  rewrite (app_assoc a), flat_app, (flat_quiet _ _ m Hq (top_textmode m Hm)), He, flat_app, (piece_flat p m Hm Hp).
  apply IH; assumption.
Qed.
(* a value between whitespace, as it stands after '=' in a field and in an @string *)
Lemma padded_value_flat w v w' m : top m = true -> is_ws w = true -> wf_value v = true -> is_ws w' = true ->
  ends_bs false (render_value v ++ w') = false ->
  flat false (w ++ render_value v ++ w') m = Some m /\ ends_bs false (w ++ render_value v ++ w') = false.
Proof.
  intros Hm Hw Hv Hw' He. unfold wf_value in Hv. apply andb_true_iff in Hv as [Hp Hr].
  pose proof (top_textmode m Hm) as Ht. unfold render_value in *.
  rewrite flat_app, (flat_quiet w false m (quiet_ws _ _ Hw) Ht), ends_bs_app, (ends_bs_ws _ false Hw eq_refl).
  split; [|exact He].
  rewrite <- app_assoc, flat_app, (piece_flat _ m Hm Hp), flat_app, (more_flat _ _ m Hm Hr).
  apply flat_quiet; [apply quiet_ws, Hw' | exact Ht].
Qed.

Lemma fst_ns_app a b : fst_ns a -> fst_ns (a ++ b).
Proof. intros (c & s' & -> & Hc). exists c, (s' ++ b). auto. Qed.
Lemma lst_ns_app a b : lst_ns b -> lst_ns (a ++ b).
Proof. intros (s0 & x & -> & Hx). exists (a ++ s0), x. rewrite app_assoc. auto. Qed.
Lemma piece_ns p : wf_piece p = true -> fst_ns (render_piece p) /\ lst_ns (render_piece p).
Proof.
  destruct p as [s|b|q]; cbn [wf_piece render_piece]; intros H.
  - apply andb_true_iff in H as [H _]. apply tight_elim, name_tight, H.
  - split; [exists c_lb, (render_braced b ++ [c_rb]) | exists (c_lb :: render_braced b), c_rb]; auto.
  - split; [exists c_quote, (render_quoted q ++ [c_quote]) | exists (c_quote :: render_quoted q), c_quote]; auto.
Qed.
Lemma more_ns l : wf_more l = true -> render_more l = [] \/ lst_ns (render_more l).
Proof.
  induction l as [|[[a b] p] r IH]; intros H; cbn [render_more wf_more] in *; [left; reflexivity|]. right.
  band H. destruct H as [[[_ _] Hp] Hr].
  change (a ++ c_hash :: b ++ render_piece p ++ render_more r) with (a ++ (c_hash :: b) ++ render_piece p ++ render_more r).
  apply lst_ns_app, lst_ns_app. destruct (IH Hr) as [-> | Hl].
  - rewrite app_nil_r. apply piece_ns, Hp.
  - apply lst_ns_app, Hl.
Qed.
Lemma value_tight v : wf_value v = true -> tight (render_value v) = true.
Proof.
  unfold wf_value, render_value. intros H. apply andb_true_iff in H as [Hp Hm].
  destruct (piece_ns _ Hp) as [F L]. apply tight_intro; [apply fst_ns_app, F|].
  destruct (more_ns _ Hm) as [-> | Hl]; [rewrite app_nil_r; exact L | apply lst_ns_app, Hl].
Qed.

(* Field names may repeat within an entry ([seen_with], [dups_with], [dups_after] of Proofs/DupProofs.v say what
   ob_field does about it); [wrap_rep] is entry_block's choice between the bare entry and the duplicate-field block;
   [block_rep] and [exp_rep] are the ground truth with that wrapping. *)
Definition wrap_rep (h : hdr) (dp : list str) (e : block) : block :=
  match dp with [] => e | ds => BDupField h (sort_strs ds) e end.
Definition block_rep (ln : Z) (it : item) : block :=
  match it with
  | IEntry _ _ _ _ _ (EComma fs) =>
      wrap_rep (mkhdr (Some ln) (Some (render_item it)) []) (dups_after [] [] (field_names fs)) (block_of ln it)
  | _ => block_of ln it
  end.
Fixpoint exp_rep (ln : Z) (l : list (item * str)) : list block :=
  match l with
  | [] => []
  | (it, g) :: r => block_rep ln it :: exp_rep (ln + count_nl (render_item it ++ g))%Z r
  end.

Lemma dups_after_fresh names : forall sn dp, fresh_all sn names = true -> dups_after sn dp names = dp.
Proof.
  induction names as [|k r IH]; intros sn dp H; cbn [dups_after]; [reflexivity|].
  cbn [fresh_all] in H. apply andb_true_iff in H as [Hk Hr]. apply negb_true_iff in Hk.
  unfold seen_with, dups_with. rewrite Hk. cbn [andb]. apply IH, Hr.
Qed.
Lemma block_rep_nodup ln it : nodup_item it = true -> block_rep ln it = block_of ln it.
Proof.
  destruct it as [typ h w1 key w2 [|fs]| | | |]; try reflexivity. cbn [nodup_item]. intros H.
  unfold block_rep. rewrite (dups_after_fresh _ [] [] H). reflexivity.
Qed.
Lemma exp_rep_nodup l : forall ln, forallb (fun p => nodup_item (fst p)) l = true -> exp_rep ln l = exp_items ln l.
Proof.
  induction l as [|[it g] r IH]; intros ln H; cbn [exp_rep exp_items]; [reflexivity|].
  cbn [forallb fst] in H. apply andb_true_iff in H as [Hi Hr]. rewrite (block_rep_nodup ln it Hi), (IH _ Hr). reflexivity.
Qed.

(* what has to be shown for a block item: from Out (pending implicit comment P) the machine flushes P, emits
   exactly the item's block, and is back in Out with an empty implicit comment, written [rev []] so that the
   state has the shape [mkst Out _ _ (rev P) _ _] the run lemmas start from *)
Definition item_ok (it : item) : Prop :=
  forall rest pb ln o P icl B,
    is_free it = false -> wf_item it = true -> noat (render_body it) rest = true ->
    exists B', runf pb (render_item it ++ rest) (mkst Out ln o (rev P) icl B)
               = runf false rest (mkst Out (ln + count_nl (render_item it)) (block_rep ln it :: flushl o P icl)
                                    (rev []) (ln + count_nl (render_item it)) B').

Lemma rv_cons {A} (c : A) Y : rv (c :: Y) = rv Y ++ [c].
Proof. rewrite !rv_rev. reflexivity. Qed.
(* the fields of an open block after one update *)
Ltac obproj :=
  cbn [b_line raw_rev typ_rev a_rev v_rev etyp ekey f_line flds_rev seen dups
       ob_raw ob_open ob_eq ob_key ob_field add_typ add_a add_v].

(* An open block given by its texts in reading order.  The updates of the machine and add_a, add_v compute on
   this form, and the emitted blocks are read off it. *)
Definition fwd (bl : Z) (raw typ a v et ek : str) (fl : Z) (fs : list field) (sn dp : list str) : openb :=
  mkob bl (rev raw) (rev typ) (rev a) (rev v) et ek fl fs sn dp.
Section Fwd.
  Variables (bl : Z) (raw typ a v et ek : str) (fl : Z) (fs : list field) (sn dp : list str).
  Let O := fwd bl raw typ a v et ek fl fs sn dp.
  Lemma add_a_fwd t : add_a t O = fwd bl (raw ++ t) typ (a ++ t) v et ek fl fs sn dp.
  Proof. unfold O, fwd, add_a. obproj. rewrite !rev_app_distr. reflexivity. Qed.
  Lemma add_v_fwd t : add_v t O = fwd bl (raw ++ t) typ a (v ++ t) et ek fl fs sn dp.
  Proof. unfold O, fwd, add_v. obproj. rewrite !rev_app_distr. reflexivity. Qed.
  Lemma ob_raw_fwd c : ob_raw c O = fwd bl (raw ++ [c]) typ a v et ek fl fs sn dp.
  Proof. unfold O, fwd, ob_raw. obproj. rewrite rev_unit. reflexivity. Qed.
  Lemma ob_eq_fwd c ln : ob_eq c ln O = fwd bl (raw ++ [c]) typ a [] et ek ln fs sn dp.
  Proof. unfold O, fwd, ob_eq. obproj. rewrite rev_unit. reflexivity. Qed.
  Lemma ob_key_fwd c : ob_key c O = fwd bl (raw ++ [c]) typ [] [] et (strip a) fl [] [] [].
  Proof. unfold O, fwd, ob_key. obproj. rewrite rev_unit, rv_rev_id. reflexivity. Qed.
  Lemma ob_field_fwd : ob_field O
    = fwd bl raw typ [] [] et ek fl (mkfield (strip a) (VStr (strip v)) (Some fl) :: fs)
          (seen_with (strip a) sn) (dups_with (strip a) sn dp).
  Proof. unfold O, fwd, ob_field. obproj. rewrite !rv_rev_id. reflexivity. Qed.
  Lemma braces_block_fwd kd : braces_block kd O
    = let h := mkhdr (Some bl) (Some raw) [] in
      match kd with
      | KComment => BExpl h (strip v) | KPreamble => BPreamble h v | KString => BString h (strip a) (VStr (strip v))
      end.
  Proof. unfold O, fwd, braces_block, hdr_of. obproj. rewrite !rv_rev_id. destruct kd; reflexivity. Qed.
  Lemma entry_block_fwd : entry_block O
    = let h := mkhdr (Some bl) (Some raw) [] in wrap_rep h dp (BEntry h et ek (rv fs)).
  Proof. unfold O, fwd, entry_block, wrap_rep, hdr_of. obproj. rewrite rv_rev_id. destruct dp; reflexivity. Qed.
End Fwd.
Lemma opened_fwd ln w ty : opened ln w ty = fwd ln (c_at :: w ++ [c_lb]) w [] [] ty [] 0 [] [] [].
Proof. unfold opened, fwd, ob0, ob_open, add_typ. obproj. cbn [rev app]. rewrite rev_unit, !app_nil_r. reflexivity. Qed.

Lemma step_close_braces kd r ln o ic icl O :
  runf false (c_rb :: r) (mkst (InBraces kd 0) ln o ic icl O)
  = runf false r (mkst Out ln (braces_block kd (ob_raw c_rb O) :: o) [] ln O).
Proof. reflexivity. Qed.
Lemma step_strkey_eq r ln o ic icl O :
  runf false (c_eq :: r) (mkst StrKey ln o ic icl O) = runf false r (mkst (InBraces KString 0) ln o ic icl (ob_eq c_eq ln O)).
Proof. reflexivity. Qed.
Lemma step_entkey_rb r ln o ic icl O :
  runf false (c_rb :: r) (mkst EntKey ln o ic icl O) = runf false r (mkst Out ln (entry_block (ob_key c_rb O) :: o) [] ln O).
Proof. reflexivity. Qed.
Lemma step_entkey_comma r ln o ic icl O :
  runf false (c_comma :: r) (mkst EntKey ln o ic icl O) = runf false r (mkst FldKey ln o ic icl (ob_key c_comma O)).
Proof. reflexivity. Qed.
Lemma step_fldkey_rb r ln o ic icl O :
  runf false (c_rb :: r) (mkst FldKey ln o ic icl O) = runf false r (mkst Out ln (entry_block (ob_raw c_rb O) :: o) [] ln O).
Proof. reflexivity. Qed.
Lemma step_fldkey_eq r ln o ic icl O :
  runf false (c_eq :: r) (mkst FldKey ln o ic icl O) = runf false r (mkst (FldVal false 0) ln o ic icl (ob_eq c_eq ln O)).
Proof. reflexivity. Qed.
Lemma step_fldval_comma r ln o ic icl O :
  runf false (c_comma :: r) (mkst (FldVal false 0) ln o ic icl O)
  = runf false r (mkst FldKey ln o ic icl (ob_raw c_comma (ob_field O))).
Proof. reflexivity. Qed.
Lemma step_fldval_rb r ln o ic icl O :
  runf false (c_rb :: r) (mkst (FldVal false 0) ln o ic icl O)
  = runf false r (mkst Out ln (entry_block (ob_raw c_rb (ob_field O)) :: o) [] ln O).
Proof. reflexivity. Qed.

Lemma out_eq rest L1 L2 b1 b2 F B : L1 = L2 -> b1 = b2 ->
  runf false rest (mkst Out L1 (b1 :: F) [] L1 B) = runf false rest (mkst Out L2 (b2 :: F) (rev []) L2 B).
Proof. intros -> ->. reflexivity. Qed.

(* '@' kw h '{' b '}' for a keyword that opens a braces block of kind kd: the block has the whole text as raw text
   and b as content *)
Lemma run_braces kd kw h b rest pb ln o P icl B :
  forallb isword kw = true -> is_hws h = true -> head_target kw = (InBraces kd 0, []) -> wf_braced false b = true ->
  noat (kw ++ h ++ c_lb :: render_braced b ++ [c_rb]) rest = true ->
  let t := c_at :: kw ++ h ++ c_lb :: render_braced b ++ [c_rb] in
  exists B', runf pb (t ++ rest) (mkst Out ln o (rev P) icl B)
             = runf false rest (mkst Out (ln + count_nl t)
                                  (braces_block kd (fwd ln t (kw ++ h) [] (render_braced b) [] [] 0 [] [] []) :: flushl o P icl)
                                  (rev []) (ln + count_nl t) B').
Proof.
  intros Hkw Hh Ht Hb Hna t.
  assert (Hnb : noat (render_braced b) (c_rb :: rest) = true)
    by (apply (noat_mid (kw ++ h ++ [c_lb]) _ [c_rb]); lnorm; exact Hna).
  destruct (braced_flat b false (InBraces kd 0) eq_refl Hb) as [Hf He].
  eexists. unfold t. lnorm. rewrite (run_at_head kw h _ pb ln o P icl B Hkw Hh), Ht. cbn [fst snd].
  rewrite (run_flat (render_braced b) _ false _ _ _ _ _ _ _ Hnb Hf), He, step_close_braces.
  apply out_eq; [rewrite (count_nl_head kw h _ Hkw Hh), count_nl_rb; reflexivity|].
  cbn [acc]. rewrite opened_fwd, add_v_fwd, ob_raw_fwd. cbn [app]. lnorm. reflexivity.
Qed.
Lemma item_ok_comment kw h b : item_ok (IComment kw h b).
Proof.
  intros rest pb ln o P icl B _ Hwf Hna. cbn [wf_item] in Hwf. band Hwf. destruct Hwf as (((Hkw & Hh) & Hsw) & Hb).
  destruct (run_braces KComment kw h b rest pb ln o P icl B Hkw Hh (head_target_comment _ Hsw) Hb Hna) as [B' E].
  exists B'. cbn [render_item render_body]. rewrite E, braces_block_fwd. reflexivity.
Qed.
Lemma item_ok_preamble kw h b : item_ok (IPreamble kw h b).
Proof.
  intros rest pb ln o P icl B _ Hwf Hna. cbn [wf_item] in Hwf. band Hwf. destruct Hwf as (((Hkw & Hh) & Hsw) & Hb).
  destruct (run_braces KPreamble kw h b rest pb ln o P icl B Hkw Hh (head_target_preamble _ Hsw) Hb Hna) as [B' E].
  exists B'. cbn [render_item render_body]. rewrite E, braces_block_fwd. reflexivity.
Qed.

Definition field_tail (f : gfield) : str := g_w2 f ++ render_value (g_val f) ++ g_post f.
Lemma render_field_eq f : render_field f = field_head f ++ c_eq :: field_tail f.
Proof. reflexivity. Qed.
(* the open block when the text of field f, read from line ln, has been consumed *)
Definition field_ob (ln : Z) (f : gfield) (O : openb) : openb :=
  add_v (field_tail f) (ob_eq c_eq (ln + count_nl (field_head f)) (add_a (field_head f) O)).
Lemma run_field f r ln o ic icl O : wf_field f = true -> noat (render_field f) r = true ->
  runf false (render_field f ++ r) (mkst FldKey ln o ic icl O)
  = runf false r (mkst (FldVal false 0) (ln + count_nl (render_field f)) o ic icl (field_ob ln f O)).
Proof.
  intros Hwf Hna. unfold wf_field in Hwf. band Hwf.
  destruct Hwf as (((((((Hpre & Hname) & Hw1) & He1) & Hw2) & Hv) & Hpost) & He2).
  rewrite render_field_eq in *. rewrite noat_app in Hna. apply andb_true_iff in Hna as [Hn1 Hn2].
  cbn [noat] in Hn2. apply andb_true_iff in Hn2 as [_ Hn2]. rewrite <- app_assoc.
  rewrite (run_flat (field_head f) FldKey false _ _ _ _ _ _ _ Hn1 (flat_quiet _ _ FldKey (quiet_key _ _ _ Hpre Hname Hw1) eq_refl)).
  unfold field_head at 1. rewrite (ends_bs_key _ _ _ Hpre He1). cbn [app]. rewrite step_fldkey_eq.
  destruct (padded_value_flat _ _ _ (FldVal false 0) eq_refl Hw2 Hv Hpost He2) as [Ef Ee]. fold (field_tail f) in Ef, Ee.
  rewrite (run_flat (field_tail f) _ false r _ _ _ _ _ _ Hn2 Ef).
  rewrite Ee, count_nl_app, count_nl_cons. change (c_eq =? c_nl)%N with false. cbn iota.
  rewrite Z.add_0_l, Z.add_assoc. reflexivity.
Qed.
Lemma field_strips f : wf_field f = true ->
  strip (field_head f) = g_name f /\ strip (field_tail f) = render_value (g_val f).
Proof.
  intros Hwf. unfold wf_field in Hwf. band Hwf.
  destruct Hwf as (((((((Hpre & Hname) & Hw1) & He1) & Hw2) & Hv) & Hpost) & He2).
  split; [apply strip_tight; auto using name_tight | apply strip_tight; auto using value_tight].
Qed.
(* ob_field on that open block: the field of the ground truth is recorded, the accumulators are cleared *)
Lemma field_done ln f bl raw typ v et ek fl fs sn dp : wf_field f = true ->
  ob_field (field_ob ln f (fwd bl raw typ [] v et ek fl fs sn dp))
  = fwd bl (raw ++ render_field f) typ [] [] et ek (ln + count_nl (field_head f)) (exp_field ln f :: fs)
        (seen_with (g_name f) sn) (dups_with (g_name f) sn dp).
Proof.
  intros Hwf. destruct (field_strips f Hwf) as [S1 S2]. unfold field_ob.
  rewrite add_a_fwd, ob_eq_fwd, add_v_fwd, ob_field_fwd. cbn [app]. rewrite S1, S2, render_field_eq. lnorm. reflexivity.
Qed.

(* the open block when the closing brace of the field list has been read *)
Fixpoint after_fields (ln : Z) (fs : gfields) (O : openb) : openb :=
  match fs with
  | FEnd w => ob_raw c_rb (add_a w O)
  | FLast f => ob_raw c_rb (ob_field (field_ob ln f O))
  | FCons f r => after_fields (ln + count_nl (render_field f)) r (ob_raw c_comma (ob_field (field_ob ln f O)))
  end.
(* rewriting with this equation is cheap to check; unfolding the recursion by conversion is not: the two open
   blocks are then compared as records before the recursion is *)
Lemma after_fields_cons ln f r O :
  after_fields ln (FCons f r) O
  = after_fields (ln + count_nl (render_field f)) r (ob_raw c_comma (ob_field (field_ob ln f O))).
Proof. reflexivity. Qed.
Lemma run_fields fs : forall r ln o ic icl O, wf_fields fs = true -> noat (render_fields fs) r = true ->
  exists B', runf false (render_fields fs ++ r) (mkst FldKey ln o ic icl O)
  = runf false r (mkst Out (ln + count_nl (render_fields fs)) (entry_block (after_fields ln fs O) :: o) []
                    (ln + count_nl (render_fields fs)) B').
Proof.
  induction fs as [w|f|f r0 IH]; intros r ln o ic icl O Hwf Hna; cbn [render_fields wf_fields after_fields] in *;
    rewrite noat_app in Hna; apply andb_true_iff in Hna as [Hn1 Hn2]; rewrite <- app_assoc.
  - eexists. rewrite (run_flat w FldKey false _ _ _ _ _ _ _ Hn1 (flat_quiet _ _ FldKey (quiet_ws _ _ Hwf) eq_refl)).
    rewrite (ends_bs_ws w false Hwf eq_refl). cbn [app]. rewrite step_fldkey_rb, count_nl_rb. reflexivity.
  - eexists. rewrite (run_field f _ _ _ _ _ _ Hwf Hn1). cbn [app]. rewrite step_fldval_rb, count_nl_rb. reflexivity.
  - apply andb_true_iff in Hwf as [Hwf Hwr]. cbn [noat] in Hn2. apply andb_true_iff in Hn2 as [_ Hn2].
    rewrite (run_field f _ _ _ _ _ _ Hwf Hn1). cbn [app]. rewrite step_fldval_comma.
    destruct (IH r (ln + count_nl (render_field f)) o ic icl (ob_raw c_comma (ob_field (field_ob ln f O))) Hwr Hn2) as [B' E]. exists B'. rewrite E.
    rewrite count_nl_app, count_nl_cons. change (c_comma =? c_nl)%N with false. cbn iota.
    rewrite Z.add_0_l, Z.add_assoc. reflexivity.
Qed.
(* the block emitted then: the fields of the ground truth after those recorded before, wrapped if a name repeats *)
Lemma entry_after_fields fs : forall ln bl raw typ v et ek fl fs0 sn dp, wf_fields fs = true ->
  entry_block (after_fields ln fs (fwd bl raw typ [] v et ek fl fs0 sn dp))
  = wrap_rep (mkhdr (Some bl) (Some (raw ++ render_fields fs)) []) (dups_after sn dp (field_names fs))
      (BEntry (mkhdr (Some bl) (Some (raw ++ render_fields fs)) []) et ek (rv fs0 ++ exp_fields ln fs)).
Proof.
  induction fs as [w|f|f r IH]; intros ln bl raw typ v et ek fl fs0 sn dp Hwf;
    [cbn [after_fields] | cbn [after_fields] | rewrite after_fields_cons];
    cbn [wf_fields render_fields exp_fields field_names dups_after] in *.
  - rewrite add_a_fwd, ob_raw_fwd, entry_block_fwd. cbn zeta. lnorm. rewrite app_nil_r. reflexivity.
  - rewrite (field_done ln f _ _ _ _ _ _ _ _ _ _ Hwf), ob_raw_fwd, entry_block_fwd. cbn zeta. rewrite rv_cons. lnorm. reflexivity.
  - apply andb_true_iff in Hwf as [Hwf Hwr]. rewrite (field_done ln f _ _ _ _ _ _ _ _ _ _ Hwf), ob_raw_fwd, (IH _ _ _ _ _ _ _ _ _ _ _ Hwr).
    cbn zeta. rewrite rv_cons. lnorm. reflexivity.
Qed.

Lemma item_ok_entry typ h w1 key w2 t : item_ok (IEntry typ h w1 key w2 t).
Proof.
  intros rest pb ln o P icl B _ Hwf Hna. cbn [wf_item] in Hwf. band Hwf.
  destruct Hwf as (((((((((Ht & Hh) & S1) & S2) & S3) & H1) & Hk) & H2) & He) & Htl).
  cbn [render_item render_body] in *. destruct (typ_tight typ Ht) as [_ Hw].
  assert (Hs : strip (w1 ++ key ++ w2) = key) by (apply strip_tight; auto using name_tight).
  unfold entry_head in Hna at 1. lnorm_in Hna.
  assert (HnK : noat (w1 ++ key ++ w2) (render_etail t ++ rest) = true)
    by (apply (noat_mid (typ ++ h ++ [c_lb])); lnorm; exact Hna).
  unfold entry_head at 1. lnorm. rewrite (run_at_head typ h _ pb ln o P icl B Hw Hh), (head_target_entry typ Ht S1 S2 S3).
  cbn [fst snd]. rewrite (app3 w1 key w2).
  rewrite (run_flat (w1 ++ key ++ w2) EntKey false _ _ _ _ _ _ _ HnK (flat_quiet _ _ EntKey (quiet_key _ _ _ H1 Hk H2) eq_refl)).
  rewrite (ends_bs_key w1 key w2 H1 He).
  destruct t as [|fs]; cbn [render_etail wf_etail] in *.
  - eexists. cbn [app]. rewrite step_entkey_rb. apply out_eq.
    + rewrite app_comm_cons, count_nl_rb, count_nl_cons, (count_nl_entry_head typ h w1 key w2 Hw Hh). reflexivity.
    + cbn [acc]. rewrite opened_fwd, add_a_fwd, ob_key_fwd, entry_block_fwd. cbn [app wrap_rep rv rev_append]. rewrite Hs.
      unfold block_rep, block_of. cbn [render_item render_body render_etail]. unfold entry_head. lnorm. reflexivity.
  - assert (Hnt : noat (render_fields fs) rest = true).
    { apply (noat_mid (typ ++ h ++ c_lb :: w1 ++ key ++ w2 ++ [c_comma]) _ []). rewrite app_nil_r. lnorm. exact Hna. }
    cbn [app]. rewrite step_entkey_comma.
    edestruct (run_fields fs rest) as [B' E]; [exact Htl | exact Hnt |]. eexists. rewrite E. apply out_eq.
    + rewrite count_nl_cons, (count_nl_app (entry_head typ h w1 key w2)), count_nl_cons, (count_nl_entry_head typ h w1 key w2 Hw Hh).
      change (c_comma =? c_nl)%N with false. change (c_at =? c_nl)%N with false. cbn iota. lia.
    + cbn [acc]. rewrite opened_fwd, add_a_fwd, ob_key_fwd, (entry_after_fields fs _ _ _ _ _ _ _ _ _ _ _ Htl).
      cbn [app rv rev_append]. rewrite Hs. unfold block_rep, block_of. cbn [render_item render_body render_etail].
      rewrite (count_nl_entry_head typ h w1 key w2 Hw Hh). unfold entry_head. lnorm. reflexivity.
Qed.

Lemma item_ok_string kw h w1 name w2 w3 v w4 : item_ok (IString kw h w1 name w2 w3 v w4).
Proof.
  intros rest pb ln o P icl B _ Hwf Hna. cbn [wf_item] in Hwf. band Hwf.
  destruct Hwf as ((((((((((Hkw & Hh) & Hsw) & H1) & Hk) & H2) & He1) & H3) & Hv) & H4) & He2).
  cbn [render_item render_body] in *.
  pose proof (noat_mid (kw ++ h ++ [c_lb]) (w1 ++ name ++ w2) (c_eq :: w3 ++ render_value v ++ w4 ++ [c_rb]) rest) as HnK.
  pose proof (noat_mid (kw ++ h ++ c_lb :: w1 ++ name ++ w2 ++ [c_eq]) (w3 ++ render_value v ++ w4) [c_rb] rest) as HnV.
  lnorm_in HnK. lnorm_in HnV. specialize (HnK Hna). specialize (HnV Hna).
  destruct (padded_value_flat _ _ _ (InBraces KString 0) eq_refl H3 Hv H4 He2) as [Ed Ee].
  eexists. lnorm. rewrite (run_at_head kw h _ pb ln o P icl B Hkw Hh), (head_target_string kw Hsw). cbn [fst snd].
  rewrite (app3 w1 name w2), (run_flat _ StrKey false _ _ _ _ _ _ _ HnK (flat_quiet _ _ StrKey (quiet_key _ _ _ H1 Hk H2) eq_refl)).
  rewrite (ends_bs_key _ _ _ H1 He1), step_strkey_eq.
  rewrite (app3 w3 (render_value v) w4), (run_flat _ _ false _ _ _ _ _ _ _ HnV Ed), Ee, step_close_braces.
  apply out_eq.
  - rewrite (count_nl_head kw h _ Hkw Hh), !count_nl_app, !count_nl_cons, !count_nl_app.
    cbn [count_nl]. change (c_eq =? c_nl)%N with false. change (c_rb =? c_nl)%N with false. cbn iota. lia.
  - cbn [acc]. rewrite opened_fwd, add_a_fwd, ob_eq_fwd, add_v_fwd, ob_raw_fwd, braces_block_fwd. cbn [app].
    rewrite (strip_tight w1 name w2 H1 H2 (name_tight _ Hk)), (strip_tight w3 _ w4 H3 H4 (value_tight _ Hv)).
    unfold block_rep, block_of. cbn [render_item render_body]. lnorm. reflexivity.
Qed.

Lemma all_items_ok it : item_ok it.
Proof.
  destruct it.
  - apply item_ok_entry.
  - apply item_ok_string.
  - apply item_ok_preamble.
  - apply item_ok_comment.
  - intros rest pb ln o P icl B H. discriminate H.
Qed.

(* one item and the gap behind it: free text and the gap join the pending implicit comment; a block item flushes
   it and emits its block, and the gap is pending *)
Lemma run_item it g rest pb ln o P icl B : wf_item it = true -> noat (render_body it ++ g) rest = true ->
  exists pb' B', runf pb (render_item it ++ g ++ rest) (mkst Out ln o (rev P) icl B)
    = runf pb' rest
        (if is_free it
         then mkst Out (ln + count_nl (render_item it ++ g)) o (rev (P ++ render_item it ++ g)) icl B'
         else mkst Out (ln + count_nl (render_item it ++ g)) (block_rep ln it :: flushl o P icl) (rev g)
                   (ln + count_nl (render_item it)) B').
Proof.
  intros Hit Hna. destruct (is_free it) eqn:Fr.
  - destruct it as [| | | |t]; try discriminate Fr. cbn [render_item render_body] in *.
    eexists _, B. rewrite app_assoc, (run_out (t ++ g)) by exact Hna. reflexivity.
  - rewrite noat_app in Hna. apply andb_true_iff in Hna as [Hna1 Hna2].
    destruct (all_items_ok it (g ++ rest) pb ln o P icl B Fr Hit Hna1) as [B' E].
    eexists _, B'. rewrite E, (run_out g) by exact Hna2. cbn [app]. rewrite count_nl_app, Z.add_assoc. reflexivity.
Qed.

(* pf: the previous item is free text, which is then part of P; otherwise P is the gap since the last block,
   blank, and started on line icl *)
Lemma run_items : forall items pf pb ln o P icl B,
  wf_items pf items = true ->
  (pf = false -> is_ws P = true /\ icl + count_nl P = ln) ->
  finish (runf pb (render_items items) (mkst Out ln o (rev P) icl B))
  = Blocks (rev (flushl o P icl) ++ exp_rep ln items).
Proof.
  induction items as [|[it g] r IH]; intros pf pb ln o P icl B Hwf Hpf.
  - cbn [render_items runf exp_rep]. unfold finish. cbn [md]. rewrite flush_ic_l, rv_rev, app_nil_r. reflexivity.
  - cbn [wf_items] in Hwf. band Hwf. destruct Hwf as ((((Hit & Hg) & Hadj) & Hna) & Hr).
    cbn [render_items exp_rep].
    destruct (run_item it g (render_items r) pb ln o P icl B Hit Hna) as (pb' & B' & ->).
    destruct (is_free it) eqn:Fr.
    + destruct it as [| | | |t]; try discriminate Fr. cbn [andb] in Hadj. subst pf.
      destruct (Hpf eq_refl) as [HP Hl]. cbn [render_item wf_item] in *.
      rewrite (IH true _ _ _ _ _ _ Hr) by discriminate.
      unfold flushl. rewrite (end_implicit_free P t g icl HP Hg Hit), (end_implicit_ws P icl HP).
      cbn [rev block_rep block_of render_item]. rewrite <- app_assoc, Hl. reflexivity.
    + rewrite (IH false _ _ _ _ _ _ Hr).
      * unfold flushl at 1. rewrite (end_implicit_ws g _ Hg). cbn [rev]. rewrite <- app_assoc. reflexivity.
      * intros _. split; [exact Hg | rewrite count_nl_app; lia].
Qed.

Lemma run_doc d : is_ws (d_gap0 d) = true ->
  run (render d)
  = runf false (render_items (d_items d))
      (mkst Out (count_nl (d_gap0 d)) [] (rev (c_nl :: d_gap0 d)) (-1) (ob0 0 0%N)).
Proof.
  intros Hg. unfold run, render. rewrite runf_fold.
  change (c_nl :: d_gap0 d ++ render_items (d_items d)) with ((c_nl :: d_gap0 d) ++ render_items (d_items d)).
  assert (Hg' : is_ws (c_nl :: d_gap0 d) = true) by (cbn [is_ws forallb]; exact Hg).
  unfold st0. change (mkst Out (-1) [] [] (-1) (ob0 0 0%N)) with (mkst Out (-1) [] (rev []) (-1) (ob0 0 0%N)).
  rewrite (run_out (c_nl :: d_gap0 d)) by (apply noat_ws, Hg').
  rewrite (ends_bs_ws _ false Hg' eq_refl). cbn [app]. do 2 f_equal.
  change (count_nl (c_nl :: d_gap0 d)) with (1 + count_nl (d_gap0 d)). lia.
Qed.

Theorem split_render_rep d : wf_doc d -> split_raw (render d) = Blocks (exp_rep (count_nl (d_gap0 d)) (d_items d)).
Proof.
  intros Hwf. unfold wf_doc, wf_doc_b in Hwf. apply andb_true_iff in Hwf as [Hg Hwf].
  assert (Hg' : is_ws (c_nl :: d_gap0 d) = true) by (cbn [is_ws forallb]; exact Hg).
  unfold split_raw. rewrite (run_doc d Hg), (run_items (d_items d) false _ _ _ _ _ _ Hwf).
  - unfold flushl. rewrite (end_implicit_ws _ _ Hg'). reflexivity.
  - intros _. split; [exact Hg'|]. change (count_nl (c_nl :: d_gap0 d)) with (1 + count_nl (d_gap0 d)). lia.
Qed.

Theorem split_render : forall d, wf_doc d -> nodup_fields d -> split_raw (render d) = Blocks (expected d).
Proof. intros d Hwf Hnd. rewrite (split_render_rep d Hwf). f_equal. apply exp_rep_nodup, Hnd. Qed.

Lemma exp_items_no_failed l : forall ln, forallb (fun b => negb (is_failed_class b)) (exp_items ln l) = true.
Proof.
  induction l as [|[it g] r IH]; intros ln; cbn [exp_items forallb]; [reflexivity|].
  rewrite IH, andb_true_r. destruct it; reflexivity.
Qed.
Theorem expected_no_failed d : forallb (fun b => negb (is_failed_class b)) (expected d) = true.
Proof. apply exp_items_no_failed. Qed.
Corollary split_render_no_failed d : wf_doc d -> nodup_fields d ->
  exists bs, split_raw (render d) = Blocks bs /\ filter is_failed_class bs = [].
Proof.
  intros Hwf Hnd. exists (expected d). split; [apply split_render; assumption|].
  assert (H := expected_no_failed d). induction (expected d) as [|b l IH]; [reflexivity|].
  cbn [forallb filter] in *. apply andb_true_iff in H as [Hb Hl]. apply negb_true_iff in Hb. rewrite Hb. apply IH, Hl.
Qed.

Definition zero_fields (it : item) : bool :=
  match it with IEntry _ _ _ _ _ ENoComma | IEntry _ _ _ _ _ (EComma (FEnd _)) => true | IEntry _ _ _ _ _ _ => false | _ => true end.
Definition no_entry (it : item) : bool := match it with IEntry _ _ _ _ _ _ => false | _ => true end.
Fixpoint braced_only (fs : gfields) : bool :=
  let one f := match g_val f with mkgv (PBraced _) [] => true | _ => false end in
  match fs with FEnd _ => false | FLast f => one f | FCons f r => one f && match r with FEnd _ => false | _ => braced_only r end end.
Definition stage5_item (it : item) : bool :=
  zero_fields it || match it with IEntry _ _ _ _ _ (EComma fs) => braced_only fs | _ => false end.
Theorem split_render_stage1 d : wf_doc d ->
  Forall (fun p => match fst p with IComment _ _ _ | IPreamble _ _ _ => True | _ => False end) (d_items d) ->
  split_raw (render d) = Blocks (expected d).
Proof.
  intros Hwf HF. apply split_render; [exact Hwf|]. unfold nodup_fields, nodup_fields_b. apply forallb_forall.
  intros [it g] Hin. rewrite Forall_forall in HF. specialize (HF _ Hin). destruct it; try contradiction; reflexivity.
Qed.
Theorem split_render_stage3 d : wf_doc d -> forallb (fun p => no_entry (fst p)) (d_items d) = true ->
  split_raw (render d) = Blocks (expected d).
Proof.
  intros Hwf H. apply split_render; [exact Hwf|]. unfold nodup_fields, nodup_fields_b.
  rewrite forallb_forall in *. intros [it g] Hin. specialize (H _ Hin). destruct it; try reflexivity. discriminate H.
Qed.
Theorem split_render_stage4 d : wf_doc d -> forallb (fun p => zero_fields (fst p)) (d_items d) = true ->
  split_raw (render d) = Blocks (expected d).
Proof.
  intros Hwf H. apply split_render; [exact Hwf|]. unfold nodup_fields, nodup_fields_b.
  rewrite forallb_forall in *. intros [it g] Hin. specialize (H _ Hin). destruct it as [? ? ? ? ? [|[]]| | | |]; try reflexivity; discriminate H.
Qed.
Theorem split_render_stage5 d : wf_doc d -> nodup_fields d -> forallb (fun p => stage5_item (fst p)) (d_items d) = true ->
  split_raw (render d) = Blocks (expected d).
Proof. intros Hwf Hnd _. apply split_render; assumption. Qed.
Theorem split_render_stage6 d : wf_doc d -> nodup_fields d -> split_raw (render d) = Blocks (expected d).
Proof. apply split_render. Qed.

Definition bs_ (s : str) (k : braced) : braced := fold_right BChar k s.
Definition qs_ (s : str) (k : quoted) : quoted := fold_right QChar k s.
Definition sp_ : str := lit " ".
Definition ex_f1 : gfield :=
  mkgf (c_nl :: lit "  ") (lit "title") sp_ sp_
       (mkgv (PBraced (bs_ (lit "A ") (BGroup (bs_ (lit "B=""x") BNil) (bs_ (lit " c, d") BNil)))) []) [].
Definition ex_f2 : gfield :=
  mkgf (c_nl :: lit "  ") (lit "note") [] sp_
       (mkgv (PQuoted (qs_ (lit "say \""hi\"", ") (QGroup (qs_ (lit "ok") QNil) QNil))) [(sp_, sp_, PBare (lit "jan")); ([], [], PBraced BNil)]) [c_nl].
Definition ex_doc : doc :=
  mkdoc [c_nl]
    [ (IFree (lit "% header: x = {1, 2} @ home"), [c_nl]);
      (IComment (lit "Comment") [] (bs_ (lit " hello, ") (BGroup (bs_ (lit "w") BNil) BNil)), [c_nl; c_nl]);
      (IString (lit "String") sp_ [] (lit "jan") sp_ sp_ (mkgv (PQuoted (qs_ (lit "January") QNil)) []) [], [c_nl]);
      (IEntry (lit "Article") [] sp_ (lit "key:1") [] (EComma (FCons ex_f1 (FLast ex_f2))), [c_nl]);
      (IEntry (lit "misc") sp_ [] (lit "k2") [] ENoComma, []);
      (IFree (lit "trailing"), []) ].
Example ex_wf : wf_doc ex_doc.  Proof. vm_compute. reflexivity. Qed.
Example ex_nodup : nodup_fields ex_doc.  Proof. vm_compute. reflexivity. Qed.
Example ex_render : render ex_doc = lit "
% header: x = {1, 2} @ home
@Comment{ hello, {w}}

@String {jan = ""January""}
@Article{ key:1,
  title = {A {B=""x} c, d},
  note= ""say \""hi\"", {ok}"" # jan#{}
}
@misc {k2}trailing".
Proof. vm_compute. reflexivity. Qed.
Example ex_split : split_raw (render ex_doc) = Blocks (expected ex_doc).
Proof. apply split_render; [exact ex_wf | exact ex_nodup]. Qed.
Example ex_split_computed : split_raw (render ex_doc) = Blocks (expected ex_doc).
Proof. vm_compute. reflexivity. Qed.
Example ex_expected_nontrivial : map class_of (expected ex_doc) = [CImpl; CExpl; CString; CEntry; CEntry; CImpl].
Proof. vm_compute. reflexivity. Qed.
(* boundary B1: an active quote inside a brace group of a quoted piece is outside the dialect, and the
   statement fails there (the splitter closes the value at that quote) *)
Definition ex_b1 : doc :=
  mkdoc [] [ (IEntry (lit "a") [] [] (lit "k") []
               (EComma (FLast (mkgf [] (lit "t") [] [] (mkgv (PQuoted (QGroup (qs_ (lit """") QNil) (qs_ (lit ",") QNil))) []) []))), []) ].
Example ex_b1_not_wf : wf_doc_b ex_b1 = false.  Proof. vm_compute. reflexivity. Qed.
Example ex_b1_diverges : split_raw (render ex_b1) <> Blocks (expected ex_b1).
Proof. vm_compute. discriminate. Qed.

Print Assumptions split_render.
Print Assumptions split_render_no_failed.

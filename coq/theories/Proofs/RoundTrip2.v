(* C05: the content of parse_default (render d) for a well-formed duplicate-free document, as a
   block-wise function [parsed_content1] of [expected d] (resolution by the first @string of that name, then one layer stripped). *)
From Coq Require Import List NArith ZArith Bool Lia String.
From BP Require Import Base.Chars Model.Blocks Model.LibAdd Model.Enclosing Model.Interpolate Model.Grammar
  Model.Pipeline Spec.C05 Spec.C09 Proofs.LibAddProofs Proofs.EnclosingProofs Proofs.InterpolateProofs
  Proofs.DupProofs Proofs.SplitGrammar Proofs.PipelineTotal Proofs.RoundTrip.
Import ListNotations.

(* What the default parse makes of the blocks [bs] of a document, on contents: a field value that is not enclosed and
   is the name of an @string of [bs] becomes the text of the first @string of that name ([res_str]), then one outer
   pair of delimiters is removed ([stripv]); the value of an @string only loses its delimiters. *)
Definition enclosedb (s : str) : bool := nonstring_or_enclosed (VStr s).
Definition sd_lookup (bs : list block) (k : str) : option str :=
  option_map (fun b => str_of (string_value b)) (first_string k bs).
Definition res_str (bs : list block) (s : str) : str :=
  if enclosedb s then s else match sd_lookup bs s with Some v => v | None => s end.
Definition stripv (s : str) : value := VStr (fst (strip_enclosing s)).
Definition parsed_field (bs : list block) (f : field) : str * value := (fkey f, stripv (res_str bs (str_of (fval f)))).
Definition parsed_content1 (bs : list block) (b : block) : bcontent :=
  match b with
  | BEntry _ t k fs => KEntry t k (map (parsed_field bs) fs)
  | BString _ k v => KString k (stripv (str_of v))
  | _ => content1 b
  end.

Lemma vstr_eta v : is_vstr v = true -> v = VStr (str_of v).
Proof. destruct v; try discriminate. reflexivity. Qed.

(* two lists related element by element have equal images under maps that agree on related elements *)
Lemma Forall2_map_eq {A B C} (R : A -> B -> Prop) (g : B -> C) (h : A -> C) l l' :
  Forall2 R l l' -> (forall x y, In x l -> R x y -> g y = h x) -> map g l' = map h l.
Proof.
  induction 1 as [|x y l l' Hxy _ IH]; intros H; [reflexivity|]. cbn [map].
  f_equal; [apply H; [left; reflexivity | exact Hxy] | apply IH; intros a b I; apply H; right; exact I].
Qed.

Lemma remove_fields_content fs md r : remove_fields fs md = EVal r ->
  map fpair (fst r) = map (fun f => (fkey f, stripv (str_of (fval f)))) fs.
Proof.
  destruct r as [fs' md']. intros H. destruct (remove_fields_spec _ _ _ _ H) as [F _].
  apply (Forall2_map_eq _ _ _ _ _ F). intros f f' _ (s & Ev & ->). rewrite Ev. reflexivity.
Qed.

Lemma resolve_field_val bs f : Forall good_block bs -> is_vstr (fval f) = true ->
  fkey (resolve_field (strs (lib_of bs)) f) = fkey f /\
  fval (resolve_field (strs (lib_of bs)) f) = VStr (res_str bs (str_of (fval f))).
Proof.
  intros G V. apply vstr_eta in V. destruct (fval f) as [s| | | | | | | |] eqn:Ev; try discriminate. clear V.
  unfold resolve_field, res_str, enclosedb, sd_lookup. rewrite Ev. cbn [str_of].
  destruct (nonstring_or_enclosed (VStr s)); [split; [reflexivity | exact Ev]|].
  rewrite <- strings_dict_first. destruct (dict_get (strs (lib_of bs)) s) as [sb|] eqn:E; [|split; [reflexivity | exact Ev]].
  split; [reflexivity|]. apply vstr_eta, (strs_good bs s sb G E).
Qed.

Lemma stack_block_content bs b b' : Forall good_block bs -> good_block b ->
  remove_block (resolve_block (strs (lib_of bs)) b) = EVal b' -> content1 b' = parsed_content1 bs b.
Proof.
  intros G Gb H. destruct b as [h t k fs|h k v|h v|h c|h c|h e|h e i|h k p d|h ks e];
    try (cbn [resolve_block remove_block] in H; inversion H; subst; reflexivity).
  - apply good_entry in Gb as (_ & _ & Gf). rewrite forallb_forall in Gf.
    rewrite resolve_block_entry in H. cbn [remove_block] in H. rewrite resolve_fields_fst in H.
    destruct (remove_fields _ []) as [[fs' md]| |] eqn:E; try discriminate. inversion H; subst.
    cbn [content1 parsed_content1]. f_equal. change (map (fun f => (fkey f, fval f)) fs') with (map fpair (fst (fs', md))).
    rewrite (remove_fields_content _ _ _ E), map_map. apply map_ext_in. intros f I.
    destruct (resolve_field_val bs f G (Gf _ I)) as [K V]. unfold parsed_field. rewrite K, V. reflexivity.
  - apply good_string in Gb as (_ & Gv). apply vstr_eta in Gv. rewrite Gv in H |- *.
    cbn [resolve_block remove_block strip_value] in H. destruct (strip_enclosing (str_of v)) as [s' e] eqn:Es. inversion H; subst.
    cbn [content1 parsed_content1 str_of]. unfold stripv. rewrite Es. reflexivity.
Qed.

Lemma stack_content bs l : wf_blocks bs -> Forall good_block bs -> default_stack bs = EVal l ->
  content l = map (parsed_content1 bs) bs.
Proof.
  intros W G H. pose proof (default_stack_blockwise _ _ H) as F.
  fold (rebuild bs) in F. rewrite (rebuild_id bs W) in F.
  apply (Forall2_map_eq _ _ _ _ _ F).
  intros b b' I Hb. exact (stack_block_content bs b b' G (proj1 (Forall_forall _ _) G b I) Hb).
Qed.

Definition item_ekey (it : item) : list str := match it with IEntry _ _ _ key _ _ => [key] | _ => [] end.
Definition item_skey (it : item) : list str := match it with IString _ _ _ name _ _ _ _ => [name] | _ => [] end.
Definition doc_ekeys (d : doc) : list str := flat_map (fun p => item_ekey (fst p)) (d_items d).
Definition doc_skeys (d : doc) : list str := flat_map (fun p => item_skey (fst p)) (d_items d).
Definition nodup_doc (d : doc) : Prop := nodup_fields d /\ NoDup (doc_ekeys d) /\ NoDup (doc_skeys d).

Lemma ekeys_exp l : forall ln, ekeys (exp_items ln l) = flat_map (fun p => item_ekey (fst p)) l.
Proof.
  induction l as [|[it g] r IH]; intros ln; [reflexivity|]. cbn [exp_items flat_map fst].
  change (ekeys (?b :: ?r)) with (ekey b ++ ekeys r). rewrite IH. destruct it; reflexivity.
Qed.
Lemma skeys_exp l : forall ln, skeys (exp_items ln l) = flat_map (fun p => item_skey (fst p)) l.
Proof.
  induction l as [|[it g] r IH]; intros ln; [reflexivity|]. cbn [exp_items flat_map fst].
  change (skeys (?b :: ?r)) with (skey b ++ skeys r). rewrite IH. destruct it; reflexivity.
Qed.
Lemma nodup_doc_wf d : nodup_doc d -> wf_blocks (expected d).
Proof. intros (_ & E & S). unfold wf_blocks, expected. rewrite ekeys_exp, skeys_exp. split; assumption. Qed.

Definition pcontent (d : doc) : list bcontent := map (parsed_content1 (expected d)) (expected d).

Theorem parse_render_content d l : wf_doc d -> nodup_doc d -> parse_default (render d) = PVal l ->
  content l = pcontent d.
Proof.
  intros W N P. destruct (parse_default_inv _ _ P) as (bs & S & D). pose proof (split_good _ _ S) as G.
  pose proof (nodup_doc_wf d N) as Wb. destruct N as (Nf & _).
  rewrite (split_is_flagged _ _ (split_render d W Nf)), <- rebuild_flag_all, (rebuild_id _ Wb) in S.
  injection S as <-. exact (stack_content (expected d) l Wb G D).
Qed.
Print Assumptions parse_render_content.

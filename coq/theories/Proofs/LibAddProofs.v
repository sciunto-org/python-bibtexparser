(* Library(blocks) (Model/LibAdd.v): the blocks of a library have pairwise distinct top-level entry keys and string keys,
   and rebuilding a library from such a list returns the list itself (BlockMiddleware.transform's Library(blocks=...)). *)
From Coq Require Import List NArith ZArith Bool.
From BP Require Import Base.Chars Model.Blocks Model.LibAdd Proofs.Common.
From BP Require Model.LibRebuild Proofs.LibRebuildProofs.
Import ListNotations.

Definition ekey (b : block) : list str := match b with BEntry _ _ k _ => [k] | _ => [] end.
Definition skey (b : block) : list str := match b with BString _ k _ => [k] | _ => [] end.
Definition ekeys (bs : list block) : list str := flat_map ekey bs.
Definition skeys (bs : list block) : list str := flat_map skey bs.

(* the block list of a Library object: live entries / strings have pairwise distinct keys *)
Definition wf_blocks (bs : list block) : Prop := NoDup (ekeys bs) /\ NoDup (skeys bs).

Lemma dict_get_app {V} (d : list (str * V)) k' v k :
  dict_get (d ++ [(k', v)]) k = match dict_get d k with Some x => Some x | None => if str_eqb k k' then Some v else None end.
Proof. rewrite dict_get_cat. reflexivity. Qed.

Lemma ekeys_app a b : ekeys (a ++ b) = ekeys a ++ ekeys b.
Proof. unfold ekeys. apply flat_map_app. Qed.
Lemma skeys_app a b : skeys (a ++ b) = skeys a ++ skeys b.
Proof. unfold skeys. apply flat_map_app. Qed.

Lemma NoDup_snoc {T} (l : list T) x : NoDup l -> ~ In x l -> NoDup (l ++ [x]).
Proof.
  intros Hn Hx. induction l as [|y l IH]; simpl.
  - constructor; [tauto | constructor].
  - inversion Hn; subst. constructor.
    + rewrite in_app_iff. simpl. intros [H|[H|[]]]; [tauto | subst; apply Hx; left; reflexivity].
    + apply IH; [assumption | intros H; apply Hx; right; assumption].
Qed.

Definition index_inv (l : libst) : Prop :=
  rev (map fst (ents l)) = ekeys (rev (lrev l)) /\ rev (map fst (strs l)) = skeys (rev (lrev l))
  /\ NoDup (map fst (ents l)) /\ NoDup (map fst (strs l)).

(* a block that is neither a live entry nor a live string (a duplicate-key wrapper, say) leaves the indexes alone *)
Lemma index_inv_push l x : ekey x = [] -> skey x = [] -> index_inv l -> index_inv (mklib (x :: lrev l) (ents l) (strs l)).
Proof.
  intros E S (He & Hs & Hn). unfold index_inv. simpl. rewrite ekeys_app, skeys_app. simpl. rewrite E, S, !app_nil_r. auto.
Qed.

Lemma index_inv_add l b : index_inv l -> index_inv (add_block l b).
Proof.
  intros H. destruct b; simpl; try (apply index_inv_push; [reflexivity | reflexivity | exact H]).
  - destruct (dict_get (ents l) key) eqn:E; [apply index_inv_push; [reflexivity | reflexivity | exact H]|].
    destruct H as (He & Hs & Hne & Hns). unfold index_inv. simpl. rewrite ekeys_app, skeys_app, He, Hs. simpl. rewrite app_nil_r.
    repeat split; try assumption. constructor; [apply dict_get_none; assumption | assumption].
  - destruct (dict_get (strs l) key) eqn:E; [apply index_inv_push; [reflexivity | reflexivity | exact H]|].
    destruct H as (He & Hs & Hne & Hns). unfold index_inv. simpl. rewrite ekeys_app, skeys_app, He, Hs. simpl. rewrite app_nil_r.
    repeat split; try assumption. constructor; [apply dict_get_none; assumption | assumption].
Qed.

Lemma index_inv_all bs : forall l, index_inv l -> index_inv (lib_add_all bs l).
Proof.
  induction bs as [|b bs IH]; intros l H; simpl; [assumption|].
  apply IH. apply index_inv_add. assumption.
Qed.

Lemma index_inv0 : index_inv lib0.
Proof. unfold index_inv; simpl. repeat split; constructor. Qed.

Theorem lib_of_wf bs : wf_blocks (lblocks (lib_of bs)).
Proof.
  destruct (index_inv_all bs lib0 index_inv0) as (He & Hs & Hne & Hns).
  unfold wf_blocks, lblocks, lib_of. rewrite rv_rev. rewrite <- He, <- Hs. split; apply NoDup_rev; assumption.
Qed.

(* Model/LibRebuild.v transcribes the same Library(blocks=...): indexes in insertion order there, most recent first here;
   the two read the same under every key, and then the same blocks come out *)
Lemma add_all_rebuild_from bs : forall l es ss,
  (forall k, dict_get (ents l) k = dict_get es k) -> (forall k, dict_get (strs l) k = dict_get ss k) ->
  lrev (lib_add_all bs l) = rev (LibRebuild.rebuild_from es ss bs) ++ lrev l.
Proof.
  induction bs as [|b bs IH]; intros l es ss He Hs; [reflexivity|].
  assert (Next : forall l' es' ss' x, lrev l' = x :: lrev l ->
            (forall k, dict_get (ents l') k = dict_get es' k) -> (forall k, dict_get (strs l') k = dict_get ss' k) ->
            lrev (lib_add_all bs l') = rev (x :: LibRebuild.rebuild_from es' ss' bs) ++ lrev l).
  { intros l' es' ss' x E He' Hs'. rewrite (IH l' es' ss' He' Hs'), E. simpl. rewrite <- app_assoc. reflexivity. }
  destruct b; cbn [lib_add_all fold_left add_block LibRebuild.rebuild_from]; try (apply Next; auto; reflexivity).
  - rewrite <- He. destruct (dict_get (ents l) key); apply Next; auto; try reflexivity.
    intros k. simpl. rewrite dict_get_set, He. reflexivity.
  - rewrite <- Hs. destruct (dict_get (strs l) key); apply Next; auto; try reflexivity.
    intros k. simpl. rewrite dict_get_set, Hs. reflexivity.
Qed.

Theorem rebuild_agree bs : rebuild bs = LibRebuild.rebuild bs.
Proof.
  unfold rebuild, lblocks, lib_of, LibRebuild.rebuild. rewrite rv_rev, (add_all_rebuild_from bs lib0 [] []); auto.
  simpl. rewrite app_nil_r. apply rev_involutive.
Qed.

(* the same invariant under its two names *)
Lemma wf_blocks_lib_ok bs : wf_blocks bs <-> LibRebuild.lib_ok bs.
Proof. split; auto. Qed.

Theorem rebuild_id bs : wf_blocks bs -> rebuild bs = bs.
Proof. intros H. rewrite rebuild_agree. apply LibRebuildProofs.rebuild_ok, H. Qed.

Corollary rebuild_lib_of bs : rebuild (lblocks (lib_of bs)) = lblocks (lib_of bs).
Proof. apply rebuild_id. apply lib_of_wf. Qed.

(* a map that keeps the class and key of entries and strings keeps well-formedness *)
Lemma keys_Forall2 (R : block -> block -> Prop) bs bs' :
  (forall b b', R b b' -> ekey b' = ekey b /\ skey b' = skey b) ->
  Forall2 R bs bs' -> ekeys bs' = ekeys bs /\ skeys bs' = skeys bs.
Proof.
  intros HR H. induction H as [|b b' bs bs' Hb _ IH]; simpl; [split; reflexivity|].
  destruct (HR _ _ Hb) as [E1 E2]. destruct IH as [I1 I2]. rewrite E1, E2, I1, I2. split; reflexivity.
Qed.

Lemma wf_Forall2 (R : block -> block -> Prop) bs bs' :
  (forall b b', R b b' -> ekey b' = ekey b /\ skey b' = skey b) ->
  Forall2 R bs bs' -> wf_blocks bs -> wf_blocks bs'.
Proof.
  intros HR H [W1 W2]. destruct (keys_Forall2 R bs bs' HR H) as [E1 E2].
  unfold wf_blocks. rewrite E1, E2. split; assumption.
Qed.

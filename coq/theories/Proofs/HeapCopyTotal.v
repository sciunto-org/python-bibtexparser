(* C07 - the executable deepcopy (Model/Heap.v: dc / deepcopy_exec / deepcopy_checked) completes on every well-formed heap
   with the fuel S (length h), and meets the contract assumed of copy.deepcopy without any side condition beyond those
   dc_contract itself supplies.  Both are read off the invariant of the copy (Proofs/HeapCopyIso.v). *)
From Coq Require Import List ZArith Bool.
From BP Require Import Model.Heap Model.HeapMw Spec.C07 Proofs.HeapProofs Proofs.HeapCopyIso.
Import ListNotations.

Lemma deepcopy_checked_exec : forall h r h' r', deepcopy_checked h r = Some (h', r') -> deepcopy_exec h r = (h', r').
Proof.
  intros h r h' r' E. unfold deepcopy_checked in E. unfold deepcopy_exec.
  destruct (dc (S (length h)) h [] r) as [[[h1 m1] r1] ok]. destruct ok; [|discriminate]. inversion E; subst. reflexivity.
Qed.

Lemma deepcopy_total : forall h r, wf_heap h -> In r (dom h) ->
  exists h' r', deepcopy_checked h r = Some (h', r') /\ deepcopy_exec h r = (h', r').
Proof.
  intros h r W D. destruct (deepcopy_exec h r) as [h' r'] eqn:E.
  destruct (deepcopy_exec_inv h r h' r' W D E) as (m & E1 & _).
  exists h', r'. split; [|reflexivity]. unfold deepcopy_checked. rewrite E1. reflexivity.
Qed.

Lemma deepcopy_exec_contract : dc_contract deepcopy_exec.
Proof.
  intros h r h' r' W D E. destruct (deepcopy_exec_inv h r h' r' W D E) as (m & _ & I & G & All).
  (* the new objects are the copies, and what a copy refers to is a copy *)
  assert (C : closed h' (fun p => exists k, memo_get m k = Some p) (fun p => exists k, memo_get m k = Some p)).
  { split; [auto|]. intros p ob [k Gk] L q Iq.
    destruct (copy_refs _ _ _ _ _ _ _ (All k p Gk) L Iq) as (_ & q0 & _ & _ & Gq). eauto. }
  split; [|split; [exact (i_unch _ _ _ I)|split; [apply (i_keys _ _ _ I r r' G)|]]].
  - intros p ob q L Iq. destruct (i_new _ _ _ I p (lookup_dom _ _ _ L)) as [Ip|Cp].
    + rewrite (i_unch _ _ _ I p Ip) in L. eapply unchanged_dom; [exact (i_unch _ _ _ I)|]. eapply W; eauto.
    + destruct (proj2 C p ob Cp L q Iq) as [q0 Gq]. apply (i_keys _ _ _ I q0 q Gq).
  - intros p R. destruct (closed_reach C R (ex_intro _ r G)) as [k Gk]. apply (i_keys _ _ _ I k p Gk).
Qed.

(* every theorem that assumes `dc_contract DC` can be instantiated with the executable copy, e.g. stacks *)
Lemma run_stack_exec_ok : forall ms h lib h' lib',
  Forall mw_ok ms -> ms <> [] -> wf_heap h -> In lib (dom h) ->
  run_stack deepcopy_exec ms h lib = Some (h', lib') -> no_alias h h' lib'.
Proof. exact (run_stack_ok deepcopy_exec deepcopy_exec_contract). Qed.

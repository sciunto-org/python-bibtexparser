(* C20 - the entry points (Model/Stack.v): which middleware stack parse_string / write_string / parse_file / write_file run and in
   which order; BlockMiddleware.transform's result protocol (splice); Library(blocks) keeps or wraps every block. *)
From Coq Require Import String List NArith ZArith Bool Lia.
From BP Require Import Base.Chars Model.Blocks Model.Writer Model.Stack Spec.C20 Proofs.Common.
From BP Require Model.LibRebuild.
Import ListNotations.

Lemma bind_val_r {A} (r : res A) : bind r Val = r.
Proof. destruct r; reflexivity. Qed.
Lemma bind_assoc {A B C} (r : res A) (f : A -> res B) (g : B -> res C) :
  bind (bind r f) g = bind r (fun x => bind (f x) g).
Proof. destruct r; reflexivity. Qed.

Section EntryPoints.
  Variable M : Type.
  Variable apply : M -> lib -> res lib.
  Variable dp du : list M.   (* default_parse, default_unparse of Model/Stack.v *)
  Variable split : str -> res lib.

  Lemma in_order_bind m rest l : in_order M apply (m :: rest) l = bind (apply m l) (in_order M apply rest).
  Proof. cbn [in_order]. destruct (apply m l); reflexivity. Qed.

  Lemma fold_in_order : forall ms r,
    fold_left (fun acc m => bind acc (apply m)) ms r = bind r (in_order M apply ms).
  Proof.
    induction ms as [|m ms IH]; intros r.
    - cbn [fold_left]. destruct r; reflexivity.
    - cbn [fold_left]. rewrite IH, bind_assoc. destruct r as [l| |]; cbn [bind]; [|reflexivity|reflexivity].
      rewrite in_order_bind. reflexivity.
  Qed.

  Lemma run_mws_in_order ms l : run_mws M apply ms l = in_order M apply ms l.
  Proof. unfold run_mws. rewrite fold_in_order. reflexivity. Qed.

  Lemma in_order_app : forall a b l, in_order M apply (a ++ b) l = bind (in_order M apply a l) (in_order M apply b).
  Proof.
    induction a as [|m a IH]; intros b l; [reflexivity|].
    cbn [app]. rewrite !in_order_bind, bind_assoc. destruct (apply m l); cbn [bind]; auto.
  Qed.

  Lemma parse_clauses t l : split t = Val l ->
    (forall ps, parse_string M apply dp split t (Some ps) None = in_order M apply ps l)
    /\ (forall am, parse_string M apply dp split t None (Some am) = bind (in_order M apply dp l) (in_order M apply am))
    /\ parse_string M apply dp split t None None = in_order M apply dp l
    /\ (forall ps am, parse_string M apply dp split t (Some ps) (Some am) = Raise EValueError).
  Proof.
    intros H. unfold parse_string. rewrite H. cbn [bind build_parse_stack]. repeat split; intros;
      rewrite ?run_mws_in_order, ?in_order_app; reflexivity.
  Qed.

  Lemma parse_split_raises t e ps am : split t = Raise e -> parse_string M apply dp split t ps am = Raise e.
  Proof. intros H. unfold parse_string. rewrite H. reflexivity. Qed.

  Definition the_fmt (f : option fmt) : fmt := match f with Some f' => f' | None => default_fmt end.

  Lemma write_clauses l f :
    (forall us, write_string M apply du l (Some us) None f = bind (in_order M apply us l) (write (the_fmt f)))
    /\ (forall pm, write_string M apply du l None (Some pm) f
                   = bind (bind (in_order M apply pm l) (in_order M apply du)) (write (the_fmt f)))
    /\ write_string M apply du l None None f = bind (in_order M apply du l) (write (the_fmt f))
    /\ (forall us pm, write_string M apply du l (Some us) (Some pm) f = Raise EValueError).
  Proof.
    unfold write_string, the_fmt. cbn [bind build_unparse_stack]. repeat split; intros;
      rewrite ?run_mws_in_order, ?in_order_app; reflexivity.
  Qed.

  Variable path enc world fobj : Type.
  Variable decode : path -> enc -> res str.
  Variable write_path : world -> path -> str -> res world.
  Variable write_obj : world -> fobj -> str -> res world.

  Definition sink (w : world) (tgt : target path fobj) (s : str) : res world :=
    match tgt with TPath _ _ p => write_path w p s | TObj _ _ o => write_obj w o s end.

  Lemma files_clauses :
    (forall p e ps am,
        parse_file M apply dp split path enc decode p e ps am
        = bind (decode p e) (fun t => parse_string M apply dp split t ps am))
    /\ (forall w tgt l ps am f,
        write_file M apply du path world fobj write_path write_obj w tgt l ps am f
        = bind (write_string M apply du l ps am f) (sink w tgt))
    /\ (forall w tgt l f s, write_string M apply du l None None f = Val s ->
        write_file M apply du path world fobj write_path write_obj w tgt l None None f = sink w tgt s)
    /\ (forall w tgt l us f,
        write_file M apply du path world fobj write_path write_obj w tgt l (Some us) None f
        = bind (bind (in_order M apply us l) (write (the_fmt f))) (sink w tgt))
    /\ (forall w tgt l pm f,
        write_file M apply du path world fobj write_path write_obj w tgt l None (Some pm) f
        = bind (bind (bind (in_order M apply pm l) (in_order M apply du)) (write (the_fmt f))) (sink w tgt)).
  Proof.
    split; [|split; [|split; [|split]]]; intros; unfold write_file, parse_file.
    - reflexivity.
    - destruct tgt; reflexivity.
    - rewrite H. destruct tgt; reflexivity.
    - destruct (write_clauses l f) as [H _]. rewrite H. destruct tgt; reflexivity.
    - destruct (write_clauses l f) as [_ [H _]]. rewrite H. destruct tgt; reflexivity.
  Qed.
End EntryPoints.

Lemma items_blocks_map bs : items_blocks (map IBlock bs) = Some bs.
Proof. induction bs as [|b bs IH]; [reflexivity|]. cbn [map items_blocks]. rewrite IH. reflexivity. Qed.

Lemma items_blocks_nonblock l : In INonBlock l -> items_blocks l = None.
Proof.
  induction l as [|[b|] l IH]; intros H; [destruct H | | reflexivity].
  destruct H as [H|H]; [discriminate|]. cbn [items_blocks]. rewrite (IH H). reflexivity.
Qed.

Lemma splice_legal rs reps : Forall2 legal rs reps -> splice rs = Val (concat reps).
Proof.
  induction 1 as [|r rep rs reps Hl _ IH]; [reflexivity|].
  destruct Hl; cbn [splice concat].
  - exact IH.
  - rewrite IH. reflexivity.
  - rewrite items_blocks_map, IH. reflexivity.
Qed.

Lemma splice_illegal rs : Exists illegal rs -> splice rs = Raise ETypeError.
Proof.
  induction 1 as [r rs Hi|r rs _ IH].
  - destruct Hi as [E|[l [E Hin]]]; subst; cbn [splice]; [reflexivity|].
    rewrite (items_blocks_nonblock _ Hin). reflexivity.
  - destruct r as [|b|l|]; cbn [splice]; rewrite ?IH; try reflexivity.
    destruct (items_blocks l); reflexivity.
Qed.

Lemma legal_or_illegal r : (exists bs, legal r bs) \/ illegal r.
Proof.
  destruct r as [|b|l|].
  - left. eexists. constructor.
  - left. eexists. constructor.
  - assert ((exists bs, l = map IBlock bs) \/ In INonBlock l) as [[bs E]|H].
    { induction l as [|[b|] l IH].
      - left. exists []. reflexivity.
      - destruct IH as [[bs E]|H]; [left; exists (b :: bs); subst; reflexivity | right; right; exact H].
      - right. left. reflexivity. }
    + left. exists bs. subst. constructor.
    + right. right. exists l. split; [reflexivity | exact H].
  - right. left. reflexivity.
Qed.

Lemma block_transform_legal f l reps :
  Forall2 legal (map f l) reps -> block_transform f l = Val (library_of (concat reps)).
Proof. intros H. unfold block_transform. rewrite (splice_legal _ _ H). reflexivity. Qed.

Lemma block_transform_illegal f l : Exists illegal (map f l) -> block_transform f l = Raise ETypeError.
Proof. intros H. unfold block_transform. rewrite (splice_illegal _ H). reflexivity. Qed.

(* transform_block: a block of a failed class reaches no handler and is kept *)
Lemma transform_block_other fe fs fp fx fi b :
  is_failed_class b = true -> transform_block fe fs fp fx fi b = RBlock b.
Proof. destruct b; cbn; intros H; try discriminate; reflexivity. Qed.

(* the dict of keys seen so far maps k to a block of that kind (entry / string) whose key is k *)
Definition seen_ok (kind : bool) (seen : list (str * block)) : Prop :=
  forall k p, dict_get seen k = Some p -> key_of p = Some (kind, k).

Lemma seen_ok_cons kind seen k b : seen_ok kind seen -> key_of b = Some (kind, k) -> seen_ok kind ((k, b) :: seen).
Proof.
  intros H Hb k' p. cbn [dict_get]. destruct (str_eqb k' k) eqn:E.
  - intros E2. inversion E2; subst. apply str_eqb_eq in E. subst. exact Hb.
  - apply H.
Qed.

Lemma add_blocks_shape : forall bs se ss, seen_ok true se -> seen_ok false ss ->
  Forall2 same_or_wrapped bs (add_blocks se ss bs).
Proof.
  induction bs as [|b bs IH]; intros se ss He Hs; [constructor|].
  destruct b as [h t k fs|h k v|h v|h c|h c|h e|h e i|h k p d|h ks e]; cbn [add_blocks];
    try (constructor; [left; reflexivity | apply IH; assumption]).
  - destruct (dict_get se k) as [prev|] eqn:E.
    + constructor; [|apply IH; assumption].
      right. exists true, k, prev. repeat split. apply He. exact E.
    + constructor; [left; reflexivity|]. apply IH; [|assumption]. apply seen_ok_cons; [assumption | reflexivity].
  - destruct (dict_get ss k) as [prev|] eqn:E.
    + constructor; [|apply IH; assumption].
      right. exists false, k, prev. repeat split. apply Hs. exact E.
    + constructor; [left; reflexivity|]. apply IH; [assumption|]. apply seen_ok_cons; [assumption | reflexivity].
Qed.

Lemma library_of_shape bs : Forall2 same_or_wrapped bs (library_of bs).
Proof. apply add_blocks_shape; intros k p H; discriminate. Qed.

Lemma library_of_length bs : List.length (library_of bs) = List.length bs.
Proof. symmetry. exact (Forall2_length _ _ _ (library_of_shape bs)). Qed.

Lemma add_blocks_unkeyed : forall bs se ss, Forall (fun b => key_of b = None) bs -> add_blocks se ss bs = bs.
Proof.
  induction bs as [|b bs IH]; intros se ss H; [reflexivity|].
  inversion H as [|? ? Hb Hr]; subst. destruct b; cbn in Hb; try discriminate; cbn [add_blocks]; rewrite IH; auto.
Qed.

(* Model/LibRebuild.v transcribes the same Library(blocks=...) with insertion-ordered indexes; indexes that read the
   same under every key give the same blocks *)
Lemma add_blocks_rebuild_from bs : forall se ss es' ss',
  (forall k, dict_get se k = dict_get es' k) -> (forall k, dict_get ss k = dict_get ss' k) ->
  add_blocks se ss bs = LibRebuild.rebuild_from es' ss' bs.
Proof.
  induction bs as [|b bs IH]; intros se ss es' ss' He Hs; [reflexivity|].
  destruct b; cbn [add_blocks LibRebuild.rebuild_from]; try (f_equal; apply IH; assumption).
  - rewrite <- He. destruct (dict_get se key); f_equal; apply IH; try assumption.
    intros k. cbn [dict_get]. rewrite dict_get_set, He. reflexivity.
  - rewrite <- Hs. destruct (dict_get ss key); f_equal; apply IH; try assumption.
    intros k. cbn [dict_get]. rewrite dict_get_set, Hs. reflexivity.
Qed.

Lemma library_of_rebuild bs : library_of bs = LibRebuild.rebuild bs.
Proof. apply add_blocks_rebuild_from; reflexivity. Qed.

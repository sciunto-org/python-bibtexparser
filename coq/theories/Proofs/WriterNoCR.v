(* The writer puts a carriage return into its output only if the library or the format holds one - so a CR-free library written
   under a CR-free format goes through a file unchanged (Model/TextIO.v: file_transparent). *)
From Coq Require Import List NArith ZArith Bool String Lia.
From BP Require Import Base.Chars Model.Blocks Gen.Constants Model.Writer Model.TextIO Proofs.TextIOProofs
  Proofs.WriterProofs.
Import ListNotations.
Local Open Scope N_scope.

Definition good (c : ch) : bool := negb (code c =? 13).
Definition ok (s : str) : bool := forallb good s.
Definition value_ok (v : value) : bool := match v with VStr s => ok s | _ => true end.
Definition field_ok (f : field) : bool := ok (fkey f) && value_ok (fval f).
Definition hdr_ok (h : hdr) : bool := match raw h with Some r => ok r | None => true end.
Definition block_ok (b : block) : bool :=
  match b with
  | BEntry _ t k fs => ok t && ok k && forallb field_ok fs
  | BString _ k v => ok k && value_ok v
  | BPreamble _ v => ok v
  | BExpl _ c => ok c
  | BImpl _ c => ok c
  | BFailed h _ | BMwErr h _ _ | BDupKey h _ _ _ | BDupField h _ _ => hdr_ok h
  end.
Definition fmt_ok (f : fmt) : bool := ok (f_indent f) && ok (f_sep f) && ok (f_failed f).
Definition piece_ok (p : piece) : bool := match p with PStr s => ok s | PBad => true end.

Lemma ok_app a b : ok (a ++ b) = ok a && ok b.
Proof. apply forallb_app. Qed.

Lemma digits_good : forallb (fun d => good (digit_ch d)) [0;1;2;3;4;5;6;7;8;9] = true.
Proof. vm_compute. reflexivity. Qed.
Lemma digit_good n : good (digit_ch (n mod 10)) = true.
Proof.
  pose proof (N.mod_upper_bound n 10 ltac:(discriminate)) as B.
  apply (proj1 (forallb_forall _ _) digits_good). revert B. generalize (n mod 10). intros d B. cbn [In]. lia.
Qed.
Lemma dec_fuel_ok f : forall n acc, ok acc = true -> ok (dec_fuel f n acc) = true.
Proof.
  induction f as [|f IH]; intros n acc H; cbn [dec_fuel]; [exact H|].
  assert (H' : ok (digit_ch (n mod 10) :: acc) = true) by (cbn [ok forallb]; rewrite digit_good; exact H).
  destruct (n / 10 =? 0); [exact H' | apply IH; exact H'].
Qed.
Lemma dec_ok n : ok (dec_of_N n) = true.
Proof. unfold dec_of_N. apply dec_fuel_ok. reflexivity. Qed.

(* template.format(n=...) copies characters of the template and of n, and writes braces *)
Lemma expand_ok n t r : ok n = true -> ok t = true -> expand t n = Some r -> ok r = true.
Proof.
  intros Hn Ht H. apply expand_sound in H.
  induction H as [|c t o _ _ _ IH|t o _ IH|t o _ IH|t o _ IH]; cbn [ok forallb] in *.
  - reflexivity.
  - apply andb_prop in Ht as [Hc Ht]. rewrite Hc. exact (IH Ht).
  - apply andb_prop in Ht as [_ Ht]. apply andb_prop in Ht as [_ Ht]. exact (IH Ht).
  - apply andb_prop in Ht as [_ Ht]. apply andb_prop in Ht as [_ Ht]. exact (IH Ht).
  - do 3 apply andb_prop in Ht as [_ Ht]. fold (ok (n ++ o)). rewrite ok_app, Hn. exact (IH Ht).
Qed.

Lemma join_ok ps : forall s, forallb piece_ok ps = true -> join_pieces ps = Some s -> ok s = true.
Proof.
  induction ps as [|p ps IH]; intros s Hp H; cbn [join_pieces] in H.
  - injection H as <-. reflexivity.
  - destruct p as [x|]; [|discriminate]. cbn [forallb piece_ok] in Hp. apply andb_prop in Hp. destruct Hp as [Hx Hps].
    destruct (join_pieces ps) as [y|] eqn:E; [|discriminate]. cbn [option_map] in H. injection H as <-.
    rewrite ok_app, Hx. apply (IH y Hps eq_refl).
Qed.

Lemma ok_val_sep : ok val_sep = true. Proof. reflexivity. Qed.
Lemma pad_ok col k : ok (pad col k) = true.
Proof. rewrite pad_spaces. apply forallb_forall. intros c H. apply repeat_spec in H. subst c. reflexivity. Qed.
Lemma piece_value_ok v : value_ok v = true -> piece_ok (piece_of_value v) = true.
Proof. destruct v; cbn; auto. Qed.

Lemma field_pieces_ok indent col tr last f : ok indent = true -> field_ok f = true ->
  forallb piece_ok (field_pieces indent col tr last f) = true.
Proof.
  intros Hi Hf. unfold field_ok in Hf. apply andb_prop in Hf. destruct Hf as [Hk Hv].
  unfold field_pieces. rewrite !forallb_app. cbn [forallb piece_ok].
  rewrite Hi, Hk, pad_ok, ok_val_sep, (piece_value_ok _ Hv). destruct (tr || negb last); reflexivity.
Qed.
Lemma fields_pieces_ok indent col tr fs : ok indent = true -> forallb field_ok fs = true ->
  forallb piece_ok (fields_pieces indent col tr fs) = true.
Proof.
  intros Hi H. apply fields_pieces_forallb. intros last f Hf.
  apply field_pieces_ok; [exact Hi | exact (proj1 (forallb_forall _ _) H f Hf)].
Qed.

Lemma treat_failed_ok failed h ps : ok failed = true -> hdr_ok h = true ->
  treat_failed failed h = Val ps -> forallb piece_ok ps = true.
Proof.
  intros Hf Hh T. unfold treat_failed in T. unfold hdr_ok in Hh. destruct (raw h) as [r|]; [|discriminate].
  destruct (expand failed _) as [cmt|] eqn:E; [|discriminate]. injection T as <-.
  cbn [forallb piece_ok]. rewrite (expand_ok _ failed cmt (dec_ok _) Hf E), Hh. reflexivity.
Qed.

Lemma treat_block_ok indent col tr failed b ps : ok indent = true -> ok failed = true -> block_ok b = true ->
  treat_block indent col tr failed b = Val ps -> forallb piece_ok ps = true.
Proof.
  intros Hi Hf Hb H. destruct (is_failed_class b) eqn:F.
  { rewrite (treat_block_failed _ _ _ _ b F) in H.
    apply (treat_failed_ok failed (bhdr b) ps Hf); [destruct b; try discriminate; exact Hb | exact H]. }
  destruct b; try discriminate; cbn [treat_block block_ok] in *.
  - injection H as <-. apply andb_prop in Hb. destruct Hb as [Hb Hfs]. apply andb_prop in Hb. destruct Hb as [Ht Hk].
    cbn [forallb piece_ok]. rewrite forallb_app. cbn [forallb piece_ok]. rewrite Ht, Hk, (fields_pieces_ok _ _ _ _ Hi Hfs). reflexivity.
  - injection H as <-. apply andb_prop in Hb. destruct Hb as [Hk Hv].
    cbn [forallb piece_ok]. rewrite Hk, ok_val_sep, (piece_value_ok _ Hv). reflexivity.
  - injection H as <-. change (ok (lit "@preamble{" ++ v ++ [c_rb; c_nl]) && true = true). rewrite !ok_app, Hb. reflexivity.
  - injection H as <-. cbn [forallb piece_ok]. rewrite Hb. reflexivity.
  - injection H as <-. cbn [forallb piece_ok]. rewrite Hb. reflexivity.
Qed.

Theorem write_no_cr f bs s : fmt_ok f = true -> forallb block_ok bs = true -> write f bs = Val s -> ok s = true.
Proof.
  intros Hf Hb H. unfold fmt_ok in Hf. apply andb_prop in Hf. destruct Hf as [Hf Hfa]. apply andb_prop in Hf. destruct Hf as [Hi Hs].
  unfold write in H. destruct (write_pieces _ _ _ _ _ bs) as [ps| |] eqn:W; try discriminate.
  destruct (join_pieces ps) as [x|] eqn:J; [|discriminate]. injection H as <-.
  apply (join_ok ps x); [|exact J]. eapply write_pieces_forallb; [exact Hs | | exact W].
  intros b q Hin T. exact (treat_block_ok _ _ _ _ b q Hi Hfa (proj1 (forallb_forall _ _) Hb b Hin) T).
Qed.

(* ... so what write_file puts into a file for such a library comes back from the file exactly: the code points of the written
   text survive the text layer of every modelled codec that can encode them *)
Definition cps (s : str) : list Z := map (fun c => Z.of_N (code c)) s.
Lemma ok_no_cr s : ok s = true -> no_cr (cps s) = true.
Proof.
  induction s as [|c s IH]; [reflexivity|]. cbn [ok forallb cps map no_cr]. intro H. apply andb_prop in H. destruct H as [Hc Hs].
  fold (cps s). fold (no_cr (cps s)). rewrite (IH Hs), andb_true_r. unfold good in Hc.
  apply negb_true_iff in Hc. apply N.eqb_neq in Hc. apply negb_true_iff. apply Z.eqb_neq. lia.
Qed.

Theorem written_library_survives_the_file f bs s e bytes :
  fmt_ok f = true -> forallb block_ok bs = true -> write f bs = Val s ->
  write_text e (cps s) = Some bytes -> read_text e bytes = Some (cps s).
Proof.
  intros Hf Hb W E. apply (file_transparent e (cps s) bytes); [|exact E].
  apply ok_no_cr. apply (write_no_cr f bs s Hf Hb W).
Qed.

(* C14, the loop through writer and parser: when do the words of a valid name have balanced braces in the SPLITTER's
   reading?  names.py tokenises a name into escape pairs and single characters (Spec/C13: atoms); a word of a valid name
   is a balanced atom list.  The splitter reads a brace as escaped iff the character before it is a backslash.  The two
   readings differ exactly at a brace that follows the pair "\\"; without two adjacent backslashes they agree. *)
From Coq Require Import List NArith ZArith Bool Lia.
From BP Require Import Base.Chars Model.Names Spec.C13 Spec.C14 Spec.C14Stack Proofs.NamesTokProofs
  Proofs.NamesRoundTripProofs.
Import ListNotations.

Lemma ndb_tail c t : no_double_bs (c :: t) = true -> no_double_bs t = true.
Proof. cbn [no_double_bs]. intros H. apply andb_true_iff in H. apply H. Qed.

Definition no_pair_bs (w : list atom) : Prop := Forall (fun a => a <> APair c_bs) w.

Lemma ndb_atoms w : no_double_bs (text w) = true -> no_pair_bs w.
Proof.
  induction w as [|a r IH]; intros H; constructor.
  - intros ->. rewrite text_cons in H. cbn [atom_text app no_double_bs] in H. rewrite !N.eqb_refl in H. discriminate.
  - apply IH. rewrite text_cons in H. destruct a; cbn [atom_text app] in H.
    + apply ndb_tail in H. apply ndb_tail in H. exact H.
    + apply ndb_tail in H. exact H.
Qed.

Definition after_bs_ok (w : list atom) : Prop :=
  match w with [] => True | AChar e :: _ => ws_parse e = true | APair _ :: _ => False end.

(* a canonical, balanced atom list without the pair "\\" is balanced for the splitter *)
Lemma atoms_bscan w : forall (d : N) pb, wfa w -> no_pair_bs w -> (pb = true -> after_bs_ok w) ->
  balanced_from w d = true -> exists pb', bscan pb (N.to_nat d) (text w) = Some (pb', 0%nat).
Proof.
  induction w as [|a r IH]; intros d pb W NP Hpb B.
  - cbn [balanced_from] in B. apply N.eqb_eq in B. subst d. exists pb. reflexivity.
  - inversion NP as [|? ? Na NPr]; subst. rewrite text_cons. destruct a as [c|c].
    + destruct W as [_ Wr]. cbn [balanced_from is_open is_close] in B.
      assert (Ec : (c =? c_bs)%N = false) by (apply N.eqb_neq; intros ->; apply Na; reflexivity).
      destruct (IH d false Wr NPr ltac:(discriminate) B) as (pb' & E).
      exists pb'. cbn [atom_text app bscan].
      change (c_bs =? c_lb)%N with false. change (c_bs =? c_rb)%N with false. rewrite !andb_false_r.
      rewrite N.eqb_refl. cbn [negb andb]. rewrite Ec. exact E.
    + destruct W as [Wc Wr]. cbn [atom_text app]. cbn [balanced_from is_open is_close] in B. unfold ceq in B, Wc.
      (* after a backslash comes whitespace, not a brace *)
      assert (Hnb : (c =? c_lb)%N || (c =? c_rb)%N = true -> pb = false).
      { destruct pb; [|reflexivity]. destruct (ws_parse_facts c (Hpb eq_refl)) as (X & Y & _). unfold ceq in X, Y.
        rewrite X, Y. discriminate. }
      destruct (c =? c_lb)%N eqn:El.
      * rewrite (Hnb eq_refl) in *. destruct (IH (d + 1)%N false Wr NPr ltac:(discriminate) B) as (pb' & E).
        exists pb'. cbn [bscan negb andb]. rewrite El. replace (S (N.to_nat d)) with (N.to_nat (d + 1)) by lia. exact E.
      * destruct (c =? c_rb)%N eqn:Er.
        -- rewrite (Hnb eq_refl) in *. destruct (d =? 0)%N eqn:Ed; [discriminate|]. apply N.eqb_neq in Ed.
           destruct (IH (N.pred d) false Wr NPr ltac:(discriminate) B) as (pb' & E).
           exists pb'. cbn [bscan negb andb]. rewrite El, Er.
           replace (N.to_nat d) with (S (N.to_nat (N.pred d))) by lia. exact E.
        -- destruct (IH d (c =? c_bs)%N Wr NPr) as (pb' & E); [| exact B |].
           { intros X. specialize (Wc X). destruct r as [|[e|e] r']; cbn [after_bs_ok]; [exact I | contradiction | exact Wc]. }
           exists pb'. cbn [bscan]. rewrite El, Er, !andb_false_r. exact E.
Qed.

Lemma words_of_valid s p : spec_parse s = Some p -> Forall (fun t => exists w, t = text w /\ good w) (all_words p).
Proof.
  intros Hs. apply spec_parse_Some in Hs. destruct Hs as (Hbal & _ & ->).
  rewrite all_words_strs. apply Forall_map.
  eapply Forall_impl; [|exact (parts_Forall _ _ (sections_tw_good s Hbal))].
  intros x (w & -> & Hg). exists w. split; [reflexivity | exact Hg].
Qed.

(* in a valid name, a word without two adjacent backslashes is balanced for the splitter *)
Theorem valid_words_brace_ok s p : parse_name true s = POk p ->
  Forall (fun t => no_double_bs t = true) (all_words p) -> Forall (fun t => word_brace_ok t = true) (all_words p).
Proof.
  intros Hs Hn. apply (proj1 (tokeniser_agreement s)) in Hs. pose proof (words_of_valid s p Hs) as Hw.
  apply Forall_forall. intros t Ht. rewrite Forall_forall in Hn, Hw. specialize (Hn t Ht). destruct (Hw t Ht) as (w & -> & G).
  destruct G as [_ Wf Hsc _]. pose proof (scan_balanced _ _ Hsc) as B.
  destruct (atoms_bscan w 0%N false Wf (ndb_atoms w Hn) ltac:(discriminate) B) as (pb' & E).
  unfold word_brace_ok. change (N.to_nat 0) with 0%nat in E. rewrite E. reflexivity.
Qed.

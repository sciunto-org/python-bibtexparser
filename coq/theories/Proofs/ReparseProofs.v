(* C10, the re-parse clause: AddEnclosing's default enclosing around a brace-balanced value, written into an
   entry and split again, is one entry with one field holding exactly that text, and RemoveEnclosing gives the
   value back.  The value is the render of a grammar AST (Model/Grammar.v):
     - brace default: [braced] content with [wf_braced false b] (no active unbalanced brace character, does
       not end in a backslash) and side condition G towards the closing brace, [noat v [c_rb]] (this is
       exactly the exclusion of finding K2: no '@' word* blank* '{' inside the value);
     - quote default: [quoted] content with [wf_quoted false q] (no active quote anywhere, which is the
       quantifier's restriction "no bare quote outside braces" plus the exclusion of finding K4, an active
       quote inside braces) and [noat v [c_quote]].
   Composition of: Proofs/SplitGrammar.v (split_render), Proofs/RoundTrip3.v (RemoveEnclosing on a rendered piece, side
   condition G against a changed tail), Model/Enclosing.v (enclose, strip_enclosing), Model/Pipeline.v (parse_default). *)
From Coq Require Import List NArith ZArith Bool Lia String.
From BP Require Import Base.Chars Model.Blocks Model.LibAdd Model.Splitter Spec.C03 Model.Grammar
  Proofs.SplitGrammar Model.Enclosing Model.Interpolate Model.Pipeline Spec.C11 Proofs.InterpolateProofs
  Proofs.RoundTrip3.
Import ListNotations.
Local Open Scope Z_scope.

(* no '@' at all: the form the lemmas of RoundTrip3.v about side condition G on plain text are stated on *)
Definition noatch (s : str) : bool := forallb (fun c => negb (c =? c_at)%N) s.

Lemma typ_noatch typ : typ_ok typ = true -> noatch typ = true.
Proof.
  unfold typ_ok. intros H. apply andb_true_iff in H as [_ H].
  exact (no_at_forallb (fun c => isword c && negb (isspace c)) typ eq_refl H).
Qed.

(* '@' typ '{' key ',' pre name w1 '=' w2 value post '}' *)
Definition entry_text (typ key pre name w1 w2 val post : str) : str :=
  c_at :: typ ++ c_lb :: key ++ c_comma :: pre ++ name ++ w1 ++ c_eq :: w2 ++ val ++ post ++ [c_rb].

Definition one_field (pre name w1 w2 : str) (p : piece) (post : str) : gfield := mkgf pre name w1 w2 (mkgv p []) post.
Definition one_item (typ key pre name w1 w2 : str) (p : piece) (post : str) : item :=
  IEntry typ [] [] key [] (EComma (FLast (one_field pre name w1 w2 p post))).
Definition one_doc (typ key pre name w1 w2 : str) (p : piece) (post : str) : doc :=
  mkdoc [] [(one_item typ key pre name w1 w2 p post, [])].

Lemma render_one_doc typ key pre name w1 w2 p post :
  render (one_doc typ key pre name w1 w2 p post) = entry_text typ key pre name w1 w2 (render_piece p) post.
Proof.
  unfold render, one_doc, one_item, one_field, entry_text. cbn.
  unfold entry_head, render_field, field_head, render_value. cbn.
  rewrite !app_nil_r. repeat (rewrite <- ?app_assoc; cbn [app]). reflexivity.
Qed.

(* the frame around the value: an entry type (a word that is not comment/preamble/string), a key and a field name
   (key characters, no '@', not ending in a backslash), white space elsewhere *)
Definition frame_ok (typ key pre name w1 w2 post : str) : bool :=
  typ_ok typ && negb (starts_with s_comment (lower typ)) && negb (starts_with s_preamble (lower typ))
  && negb (starts_with s_string (lower typ))
  && name_ok key && negb (Grammar.ends_bs false key) && noatch key
  && is_ws pre && name_ok name && is_ws w1 && negb (Grammar.ends_bs false (name ++ w1)) && noatch name
  && is_ws w2 && is_ws post.

Lemma one_doc_wf typ key pre name w1 w2 p post :
  frame_ok typ key pre name w1 w2 post = true -> wf_piece p = true ->
  Grammar.ends_bs false (render_piece p) = false -> noat (render_piece p) (post ++ [c_rb]) = true ->
  wf_doc (one_doc typ key pre name w1 w2 p post) /\ nodup_fields (one_doc typ key pre name w1 w2 p post).
Proof.
  intros F Wp Eb Na. unfold frame_ok in F.
  (* the fourteen tests of frame_ok, one hypothesis each; [repeat] would go on into typ_ok *)
  do 13 (apply andb_true_iff in F as [F ?]).
  split; [|reflexivity].
  unfold wf_doc, wf_doc_b, one_doc. cbn [d_gap0 d_items is_ws forallb wf_items andb].
  assert (Wf : wf_field (one_field pre name w1 w2 p post) = true).
  { unfold wf_field, one_field. cbn [g_pre g_name g_w1 g_w2 g_val g_post].
    unfold wf_value, render_value. cbn [v_first v_more wf_more render_more]. rewrite app_nil_r.
    rewrite (ends_bs_app (render_piece p)), Eb, (ends_bs_ws post false), Wp by (assumption || reflexivity).
    repeat (apply andb_true_iff; split; [|assumption || reflexivity]). assumption. }
  assert (Wi : wf_item (one_item typ key pre name w1 w2 p post) = true).
  { unfold wf_item, one_item. cbn [wf_etail wf_fields is_hws is_ws forallb]. rewrite app_nil_r.
    repeat (apply andb_true_iff; split; [|assumption || reflexivity]). assumption. }
  rewrite Wi. cbn [andb is_free one_item negb render_items]. rewrite andb_true_r, app_nil_r.
  (* side condition G: only the value can hold an '@' *)
  unfold one_item, render_body, render_etail, render_fields, entry_head, render_field, field_head, one_field, render_value.
  cbn [g_pre g_name g_w1 g_w2 g_val g_post v_first v_more render_more app]. rewrite !app_nil_r.
  repeat (rewrite <- ?app_assoc; cbn [app]).
  rewrite (noat_plain_app typ) by (apply typ_noatch; assumption). rewrite noat_cons_plain by reflexivity.
  rewrite (noat_plain_app key), noat_cons_plain by (assumption || reflexivity).
  rewrite (noat_plain_app pre), (noat_plain_app name), (noat_plain_app w1), noat_cons_plain, (noat_plain_app w2)
    by (assumption || reflexivity || (apply no_at_ws; assumption)).
  rewrite noat_app, app_nil_r, Na. rewrite (noat_plain_app post) by (apply no_at_ws; assumption). reflexivity.
Qed.

Definition fline_of (typ key pre name w1 : str) : Z :=
  0 + count_nl (entry_head typ [] [] key []) + count_nl (pre ++ name ++ w1).

Lemma one_doc_split typ key pre name w1 w2 p post :
  frame_ok typ key pre name w1 w2 post = true -> wf_piece p = true ->
  Grammar.ends_bs false (render_piece p) = false -> noat (render_piece p) (post ++ [c_rb]) = true ->
  let text := entry_text typ key pre name w1 w2 (render_piece p) post in
  split_raw text = Blocks [BEntry (mkhdr (Some 0) (Some text) []) (lower typ) key
                             [mkfield name (VStr (render_piece p)) (Some (fline_of typ key pre name w1))]].
Proof.
  intros F Wp Eb Na text. destruct (one_doc_wf typ key pre name w1 w2 p post F Wp Eb Na) as [W N].
  pose proof (split_render _ W N) as S. rewrite render_one_doc in S. fold text in S. rewrite S. clear S.
  unfold expected, one_doc. cbn [d_gap0 d_items exp_items count_nl block_of one_item exp_fields].
  unfold exp_field, one_field, render_value, field_head. cbn [g_name g_val g_pre g_w1 v_first v_more render_more].
  rewrite app_nil_r.
  change (render_item (IEntry typ [] [] key [] (EComma (FLast (mkgf pre name w1 w2 (mkgv p []) post)))))
    with (render_item (one_item typ key pre name w1 w2 p post)).
  assert (R : render_item (one_item typ key pre name w1 w2 p post) = text).
  { pose proof (render_one_doc typ key pre name w1 w2 p post) as R. unfold render, one_doc in R.
    cbn [d_gap0 d_items render_items app] in R. rewrite !app_nil_r in R. exact R. }
  rewrite R. reflexivity.
Qed.

Lemma parse_one_entry text h t k name val fl v e :
  nonstring_or_enclosed (VStr val) = true -> strip_enclosing val = (v, e) ->
  split_raw text = Blocks [BEntry h t k [mkfield name (VStr val) fl]] ->
  parse_default text =
  PVal [BEntry (set_meta h Gen.Constants.remove_enclosing_metadata_key (VDict [(name, VStr e)])) t k [mkfield name (VStr v) fl]].
Proof.
  intros En Es S. unfold parse_default, split. rewrite S.
  change (rebuild [BEntry h t k [mkfield name (VStr val) fl]]) with [BEntry h t k [mkfield name (VStr val) fl]].
  unfold default_stack, resolve_lib, resolve_on.
  change (lblocks (lib_of [BEntry h t k [mkfield name (VStr val) fl]])) with [BEntry h t k [mkfield name (VStr val) fl]].
  cbn [map resolve_block resolve_fields fval]. rewrite En.
  unfold remove_lib, block_mw. cbn [map_res remove_block remove_fields fval strip_value]. rewrite Es.
  cbn [remove_fields dict_set fkey fline]. reflexivity.
Qed.

Lemma wrapped_enclosed_b c0 c1 t : (c0 = c_lb /\ c1 = c_rb) \/ (c0 = c_quote /\ c1 = c_quote) ->
  nonstring_or_enclosed (VStr (c0 :: t ++ [c1])) = true.
Proof.
  intros H. apply enclosed_b. unfold enclosed, starts, ends.
  destruct H as [[-> ->]|[-> ->]]; [right | left].
  - split; [eexists; reflexivity | exists (c_lb :: t); reflexivity].
  - split; [eexists; reflexivity | exists (c_quote :: t); reflexivity].
Qed.

(* side condition G for the wrapped value from the one for the content *)
Lemma noat_wrapped c0 c1 v rest : (c0 =? c_at)%N = false -> (c1 =? c_at)%N = false ->
  stopper c1 = true -> noat v [c1] = true -> noat (c0 :: v ++ [c1]) rest = true.
Proof.
  intros H0 H1 Hs Hv. cbn [noat]. rewrite H0, noat_app. cbn [noat app]. rewrite H1.
  rewrite (noat_tail v [c1] _ (tailok_stop c1 rest Hs) Hv). reflexivity.
Qed.

Lemma ends_bs_wrapped c0 v c1 : (c1 =? c_bs)%N = false -> Grammar.ends_bs false (c0 :: v ++ [c1]) = false.
Proof. intros H. change (c0 :: v ++ [c1]) with ((c0 :: v) ++ [c1]). rewrite ends_bs_app. cbn. exact H. Qed.

(* the value v with a delimiter pair q .. c1 around it, as the one piece p of the field *)
Lemma reparse_wrapped (p : piece) (q c1 : ch) (v : str) typ key pre name w1 w2 post :
  render_piece p = q :: v ++ [c1] -> (q = c_lb /\ c1 = c_rb) \/ (q = c_quote /\ c1 = c_quote) ->
  frame_ok typ key pre name w1 w2 post = true -> wf_piece p = true -> noat v [c1] = true ->
  strip_enclosing (q :: v ++ [c1]) = (v, [q]) ->
  let ev := q :: v ++ [c1] in
  let text := entry_text typ key pre name w1 w2 ev post in
  split_raw text = Blocks [BEntry (mkhdr (Some 0) (Some text) []) (lower typ) key
                             [mkfield name (VStr ev) (Some (fline_of typ key pre name w1))]]
  /\ parse_default text =
     PVal [BEntry (mkhdr (Some 0) (Some text) [(Gen.Constants.remove_enclosing_metadata_key, VDict [(name, VStr [q])])])
             (lower typ) key [mkfield name (VStr v) (Some (fline_of typ key pre name w1))]].
Proof.
  intros R Hq F W Na E ev text.
  assert (S : split_raw text = Blocks [BEntry (mkhdr (Some 0) (Some text) []) (lower typ) key
                                [mkfield name (VStr ev) (Some (fline_of typ key pre name w1))]]).
  { unfold text, ev. rewrite <- R. apply one_doc_split; try assumption; rewrite R.
    - apply ends_bs_wrapped. destruct Hq as [[_ ->]|[_ ->]]; reflexivity.
    - apply noat_wrapped; try exact Na; destruct Hq as [[-> ->]|[-> ->]]; reflexivity. }
  split; [exact S|]. rewrite (parse_one_entry text _ _ _ _ ev _ v [q] (wrapped_enclosed_b q c1 v Hq) E S). reflexivity.
Qed.

Theorem C10_reparse_brace : forall (b : braced) typ key pre name w1 w2 post,
  frame_ok typ key pre name w1 w2 post = true ->
  wf_braced false b = true ->                          (* brace-balanced, no active brace outside a group, no final backslash *)
  noat (render_braced b) [c_rb] = true ->              (* not in K2: no '@' word* blank* '{' in the value *)
  let v := render_braced b in
  let ev := c_lb :: v ++ [c_rb] in
  let text := entry_text typ key pre name w1 w2 ev post in
  (forall md air, enclose (mkadd false true [c_lb]) (VStr v) md air = Enclosing.Val (VStr ev))
  /\ split_raw text = Blocks [BEntry (mkhdr (Some 0) (Some text) []) (lower typ) key
                                [mkfield name (VStr ev) (Some (fline_of typ key pre name w1))]]
  /\ strip_enclosing ev = (v, [c_lb])
  /\ parse_default text =
     PVal [BEntry (mkhdr (Some 0) (Some text) [(Gen.Constants.remove_enclosing_metadata_key, VDict [(name, VStr [c_lb])])])
             (lower typ) key [mkfield name (VStr v) (Some (fline_of typ key pre name w1))]].
Proof.
  intros b typ key pre name w1 w2 post F W Na v ev text.
  destruct (reparse_wrapped (PBraced b) c_lb c_rb v typ key pre name w1 w2 post eq_refl (or_introl (conj eq_refl eq_refl))
              F W Na (strip_enclosing_braced b W)) as [S P].
  split; [intros md air; destruct air; reflexivity|]. split; [exact S|]. split; [exact (strip_enclosing_braced b W) | exact P].
Qed.
Print Assumptions C10_reparse_brace.

Theorem C10_reparse_quote : forall (q : quoted) typ key pre name w1 w2 post,
  frame_ok typ key pre name w1 w2 post = true ->
  wf_quoted false q = true ->                          (* brace-balanced, no active quote at all (outside braces: the
                                                          quantifier; inside braces: not in K4), no final backslash *)
  noat (render_quoted q) [c_quote] = true ->           (* not in K2 *)
  let v := render_quoted q in
  let ev := c_quote :: v ++ [c_quote] in
  let text := entry_text typ key pre name w1 w2 ev post in
  (forall md air, enclose (mkadd false true [c_quote]) (VStr v) md air = Enclosing.Val (VStr ev))
  /\ split_raw text = Blocks [BEntry (mkhdr (Some 0) (Some text) []) (lower typ) key
                                [mkfield name (VStr ev) (Some (fline_of typ key pre name w1))]]
  /\ strip_enclosing ev = (v, [c_quote])
  /\ parse_default text =
     PVal [BEntry (mkhdr (Some 0) (Some text) [(Gen.Constants.remove_enclosing_metadata_key, VDict [(name, VStr [c_quote])])])
             (lower typ) key [mkfield name (VStr v) (Some (fline_of typ key pre name w1))]].
Proof.
  intros q typ key pre name w1 w2 post F W Na v ev text.
  destruct (reparse_wrapped (PQuoted q) c_quote c_quote v typ key pre name w1 w2 post eq_refl (or_intror (conj eq_refl eq_refl))
              F W Na (strip_enclosing_quoted q W)) as [S P].
  split; [intros md air; destruct air; reflexivity|]. split; [exact S|]. split; [exact (strip_enclosing_quoted q W) | exact P].
Qed.
Print Assumptions C10_reparse_quote.

Definition blocks_of (o : outcome) : list block := match o with Blocks bs => bs | Raised => [] end.
Definition ex_frame (val : str) : str := entry_text (lit "article") (lit "k") (lit " ") (lit "t") (lit " ") (lit " ") val [].

(* K2: the brace-balanced value a @b{c} contains a block-start pattern; enclosed in braces and written into an
   entry it re-parses as three blocks (a failed block, an entry @b{c}, an implicit comment) *)
Definition k2_b : braced := bs_ (lit "a @b") (BGroup (bs_ (lit "c") BNil) BNil).
Theorem C10_reparse_brace_refuted_K2 :
  render_braced k2_b = lit "a @b{c}"
  /\ frame_ok (lit "article") (lit "k") (lit " ") (lit "t") (lit " ") (lit " ") [] = true
  /\ wf_braced false k2_b = true /\ noat (render_braced k2_b) [c_rb] = false
  /\ ex_frame (c_lb :: render_braced k2_b ++ [c_rb]) = lit "@article{k, t = {a @b{c}}}"
  /\ map class_of (blocks_of (split_raw (ex_frame (c_lb :: render_braced k2_b ++ [c_rb])))) = [CFailed; CEntry; CImpl]
  /\ forall h t k fs, split_raw (ex_frame (c_lb :: render_braced k2_b ++ [c_rb])) <> Blocks [BEntry h t k fs].
Proof.
  repeat (split; [vm_compute; reflexivity|]).
  intros h t k fs H. apply (f_equal (fun o => List.length (blocks_of o))) in H. vm_compute in H. discriminate.
Qed.

(* K4: the brace-balanced value {"} (an active quote inside braces); with the quote default it is written "{"}" and
   the splitter closes the value at the inner quote: the field holds "{" and the rest becomes an implicit comment.
   With the brace default the same value is fine (it is well-formed braced content). *)
Definition k4_q : quoted := QGroup (QChar c_quote QNil) QNil.
Definition k4_b : braced := BGroup (BChar c_quote BNil) BNil.
Theorem C10_reparse_quote_refuted_K4 :
  render_quoted k4_q = [c_lb; c_quote; c_rb] /\ render_braced k4_b = [c_lb; c_quote; c_rb]
  /\ wf_braced false k4_b = true /\ noat (render_braced k4_b) [c_rb] = true
  /\ wf_quoted false k4_q = false /\ noat (render_quoted k4_q) [c_quote] = true
  /\ map class_of (blocks_of (split_raw (ex_frame (c_quote :: render_quoted k4_q ++ [c_quote])))) = [CEntry; CImpl]
  /\ (forall h t k n fl, split_raw (ex_frame (c_quote :: render_quoted k4_q ++ [c_quote]))
                         <> Blocks [BEntry h t k [mkfield n (VStr (c_quote :: render_quoted k4_q ++ [c_quote])) fl]])
  /\ match blocks_of (split_raw (ex_frame (c_quote :: render_quoted k4_q ++ [c_quote]))) with
     | BEntry _ _ _ [f] :: _ => fval f = VStr [c_quote; c_lb; c_quote]
     | _ => False
     end.
Proof.
  repeat (split; [vm_compute; reflexivity|]). split.
  - intros h t k n fl H. apply (f_equal (fun o => List.length (blocks_of o))) in H. vm_compute in H. discriminate.
  - vm_compute. reflexivity.
Qed.
Print Assumptions C10_reparse_brace_refuted_K2.
Print Assumptions C10_reparse_quote_refuted_K4.

(* brace default: nested group, a quote and an escaped brace inside, an '@' that starts no block, white space at both ends *)
Definition ex_b : braced := bs_ (lit " A ") (BGroup (bs_ (lit "B=""x") BNil) (bs_ (lit " c, d\} e@f ") BNil)).
Example ex_b_text : ex_frame (c_lb :: render_braced ex_b ++ [c_rb]) = lit "@article{k, t = { A {B=""x} c, d\} e@f }}".
Proof. vm_compute. reflexivity. Qed.
Example ex_b_hyps : frame_ok (lit "article") (lit "k") (lit " ") (lit "t") (lit " ") (lit " ") [] = true
  /\ wf_braced false ex_b = true /\ noat (render_braced ex_b) [c_rb] = true.
Proof. vm_compute. repeat split. Qed.
Example ex_b_reparse :
  parse_default (ex_frame (c_lb :: render_braced ex_b ++ [c_rb])) =
  PVal [BEntry (mkhdr (Some 0) (Some (ex_frame (c_lb :: render_braced ex_b ++ [c_rb])))
                  [(Gen.Constants.remove_enclosing_metadata_key, VDict [(lit "t", VStr [c_lb])])])
          (lit "article") (lit "k") [mkfield (lit "t") (VStr (lit " A {B=""x} c, d\} e@f ")) (Some 0)]].
Proof.
  destruct ex_b_hyps as (F & W & N).
  destruct (C10_reparse_brace ex_b _ _ _ _ _ _ _ F W N) as (_ & _ & _ & P). exact P.
Qed.
(* the same, checked against the executable model directly *)
Example ex_b_reparse_computed :
  match parse_default (ex_frame (c_lb :: render_braced ex_b ++ [c_rb])) with
  | PVal [BEntry _ _ _ [f]] => fval f = VStr (render_braced ex_b)
  | _ => False
  end.
Proof. vm_compute. reflexivity. Qed.

(* quote default: escaped quotes, a group, an unbalanced-looking escaped brace *)
Definition ex_q : quoted := qs_ (lit "say \""hi\"", ") (QGroup (qs_ (lit "o k") QNil) (qs_ (lit " \{ ") QNil)).
Example ex_q_text : ex_frame (c_quote :: render_quoted ex_q ++ [c_quote]) = lit "@article{k, t = ""say \""hi\"", {o k} \{ ""}".
Proof. vm_compute. reflexivity. Qed.
Example ex_q_hyps : wf_quoted false ex_q = true /\ noat (render_quoted ex_q) [c_quote] = true.
Proof. vm_compute. repeat split. Qed.
Example ex_q_reparse :
  parse_default (ex_frame (c_quote :: render_quoted ex_q ++ [c_quote])) =
  PVal [BEntry (mkhdr (Some 0) (Some (ex_frame (c_quote :: render_quoted ex_q ++ [c_quote])))
                  [(Gen.Constants.remove_enclosing_metadata_key, VDict [(lit "t", VStr [c_quote])])])
          (lit "article") (lit "k") [mkfield (lit "t") (VStr (lit "say \""hi\"", {o k} \{ ")) (Some 0)]].
Proof.
  destruct ex_b_hyps as (F & _ & _). destruct ex_q_hyps as (W & N).
  destruct (C10_reparse_quote ex_q _ _ _ _ _ _ _ F W N) as (_ & _ & _ & P). exact P.
Qed.
Example ex_q_reparse_computed :
  match parse_default (ex_frame (c_quote :: render_quoted ex_q ++ [c_quote])) with
  | PVal [BEntry _ _ _ [f]] => fval f = VStr (render_quoted ex_q)
  | _ => False
  end.
Proof. vm_compute. reflexivity. Qed.

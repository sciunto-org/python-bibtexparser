(* Library(blocks=...) (Model/LibRebuild.v) as the C16 and C17 proofs use it: a list that satisfies Library's invariant
   is rebuilt as it is; rebuilding is idempotent; a map that only changes entries and fixes the blocks of a list fixes
   the rebuilt list. *)
From Coq Require Import List NArith ZArith Bool.
From BP Require Import Model.Blocks Model.LibRebuild Proofs.Common.
Import ListNotations.

Lemma filter_none {A} (p : A -> bool) l : (forall x, In x l -> p x = false) -> filter p l = [].
Proof.
  induction l as [|x l IH]; intros H; [reflexivity|]. cbn [filter].
  rewrite (H x (or_introl eq_refl)). apply IH. intros y Hy; apply H; right; exact Hy.
Qed.

Lemma rebuild_from_ok bs : forall es ss,
  NoDup (entry_keys bs) -> NoDup (string_keys bs) ->
  (forall k, In k (entry_keys bs) -> dict_get es k = None) ->
  (forall k, In k (string_keys bs) -> dict_get ss k = None) ->
  rebuild_from es ss bs = bs.
Proof.
  induction bs as [|b r IH]; intros es ss He Hs Hes Hss; [reflexivity|].
  destruct b; cbn [rebuild_from]; try (f_equal; apply IH; assumption).
  - cbn [entry_keys flat_map app] in He, Hes.
    rewrite (Hes key (or_introl eq_refl)). inversion He as [|? ? Hk He']; subst. f_equal. apply IH; try assumption.
    intros k Hk'. rewrite dict_get_set_other; [apply Hes; right; exact Hk' | intros ->; contradiction].
  - cbn [string_keys flat_map app] in Hs, Hss.
    rewrite (Hss key (or_introl eq_refl)). inversion Hs as [|? ? Hk Hs']; subst. f_equal. apply IH; try assumption.
    intros k Hk'. rewrite dict_get_set_other; [apply Hss; right; exact Hk' | intros ->; contradiction].
Qed.

Theorem rebuild_ok bs : lib_ok bs -> rebuild bs = bs.
Proof. intros [He Hs]. apply rebuild_from_ok; try assumption; reflexivity. Qed.

Lemma rebuild_from_idem bs : forall es ss, rebuild_from es ss (rebuild_from es ss bs) = rebuild_from es ss bs.
Proof.
  induction bs as [|b r IH]; intros es ss; [reflexivity|].
  destruct b; cbn [rebuild_from]; try (cbn [rebuild_from]; f_equal; apply IH).
  - destruct (dict_get es key) eqn:E; cbn [rebuild_from cast_to_duplicate]; [|rewrite E]; f_equal; apply IH.
  - destruct (dict_get ss key) eqn:E; cbn [rebuild_from cast_to_duplicate]; [|rewrite E]; f_equal; apply IH.
Qed.

Lemma rebuild_idem bs : rebuild (rebuild bs) = rebuild bs.
Proof. apply rebuild_from_idem. Qed.

(* a rebuilt block is a block of bs or a duplicate-key wrapper, which is no entry: so a map f that leaves non-entries
   alone and fixes every block of bs fixes every rebuilt block *)
Lemma rebuild_from_fixed (f : block -> block) bs : forall es ss,
  (forall b, is_entry b = false -> f b = b) -> Forall (fun b => f b = b) bs ->
  Forall (fun b => f b = b) (rebuild_from es ss bs).
Proof.
  intros es ss Hne. revert es ss. induction bs as [|b r IH]; intros es ss Hall; [constructor|].
  inversion Hall as [|? ? Hb Hr]; subst.
  destruct b; cbn [rebuild_from]; try (constructor; [exact Hb | apply IH; exact Hr]).
  - destruct (dict_get es key); constructor; try (apply IH; exact Hr); [apply Hne; reflexivity | exact Hb].
  - destruct (dict_get ss key); constructor; try (apply IH; exact Hr); [apply Hne; reflexivity | exact Hb].
Qed.


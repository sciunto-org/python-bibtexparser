(* Proofs for C19: the entry operations refine an insertion-ordered dictionary; views; reserved names;
   Python == of fields and blocks is structural equality. *)
From Coq Require Import List NArith ZArith Bool.
From BP Require Import Base.Chars Model.Blocks Model.Entry Spec.C19 Proofs.Common.
Import ListNotations.

Lemma dict_get_lookup (m : omap) k : dict_get m k = om_lookup m k.
Proof. induction m as [|[k' f] r IH]; simpl; auto. rewrite IH; reflexivity. Qed.

Lemma fields_dict_acc fs : forall d, NoDup (map fkey fs) -> (forall f, In f fs -> ~ In (fkey f) (map fst d)) ->
  fold_left (fun d f => dict_set d (fkey f) f) fs d = d ++ abs_fields fs.
Proof.
  induction fs as [|f r IH]; intros d Hnd Hd; simpl.
  - rewrite app_nil_r; reflexivity.
  - inversion Hnd as [|x l Hnotin Hnd']; subst.
    rewrite dict_set_new by (apply Hd; left; reflexivity).
    rewrite IH; auto.
    + rewrite <- app_assoc. reflexivity.
    + intros g Hg. rewrite map_app, in_app_iff. simpl. intros [H|[H|[]]].
      * apply (Hd g); [right; assumption | assumption].
      * apply Hnotin. rewrite H. apply in_map. assumption.
Qed.

Lemma fields_dict_abs fs : NoDup (map fkey fs) -> fields_dict fs = abs_fields fs.
Proof. intros H. unfold fields_dict. rewrite fields_dict_acc; auto. Qed.

Lemma abs_keys fs : map fst (abs_fields fs) = map fkey fs.
Proof. unfold abs_fields. rewrite map_map. reflexivity. Qed.

Lemma has_index fs k :
  match om_lookup (abs_fields fs) k with
  | Some _ => exists i, index_of k (map fkey fs) = Some i
  | None => index_of k (map fkey fs) = None
  end.
Proof.
  induction fs as [|g r IH]; simpl; auto.
  destruct (str_eqb k (fkey g)); eauto.
  destruct (om_lookup (abs_fields r) k).
  - destruct IH as [i Hi]. rewrite Hi. eauto.
  - rewrite IH. reflexivity.
Qed.

Lemma set_nth_abs fs f :
  match index_of (fkey f) (map fkey fs) with
  | Some i => abs_fields (set_nth i f fs)
  | None => abs_fields (fs ++ [f])
  end = om_set (abs_fields fs) (fkey f) f.
Proof.
  induction fs as [|g r IH]; simpl; auto.
  destruct (str_eqb (fkey f) (fkey g)) eqn:E.
  - apply str_eqb_eq in E. simpl. rewrite E. reflexivity.
  - destruct (index_of (fkey f) (map fkey r)); simpl; rewrite <- IH; reflexivity.
Qed.

Lemma set_field_abs fs f : NoDup (map fkey fs) ->
  abs_fields (fst (set_field fs f)) = om_set (abs_fields fs) (fkey f) f /\ snd (set_field fs f) = RNone.
Proof.
  intros Hnd. unfold set_field, dict_has. rewrite fields_dict_abs by assumption. rewrite dict_get_lookup.
  pose proof (has_index fs (fkey f)) as Hi. pose proof (set_nth_abs fs f) as Hs.
  destruct (om_lookup (abs_fields fs) (fkey f)).
  - destruct Hi as [i Hi]. rewrite Hi in *. simpl. auto.
  - rewrite Hi in *. simpl. auto.
Qed.

Lemma filter_abs fs k : NoDup (map fkey fs) ->
  abs_fields (filter (fun g => negb (str_eqb (fkey g) k)) fs) = om_remove (abs_fields fs) k.
Proof.
  induction fs as [|g r IH]; simpl; intros Hnd; auto.
  inversion Hnd as [|x l Hnotin Hnd']; subst.
  rewrite (str_eqb_sym k (fkey g)).
  destruct (str_eqb (fkey g) k) eqn:E; simpl.
  - apply str_eqb_eq in E. rewrite filter_all; [reflexivity|]. intros x Hx. apply negb_true_iff, str_eqb_neq.
    intros Ex. apply Hnotin. rewrite E, <- Ex. apply in_map, Hx.
  - rewrite IH; auto.
Qed.

Lemma om_remove_absent (m : omap) k : om_lookup m k = None -> om_remove m k = m.
Proof.
  induction m as [|[k' f] r IH]; simpl; auto.
  destruct (str_eqb k k'); [discriminate|]. intros H. rewrite IH; auto.
Qed.

Lemma spec_pop m k d :
  spec_step m (OPop k d) = (om_remove m k, match om_lookup m k with Some f => RField f | None => dflt d end).
Proof. simpl. destruct (om_lookup m k) eqn:E; [|rewrite (om_remove_absent m k E)]; reflexivity. Qed.

Lemma pop_abs fs k d : NoDup (map fkey fs) ->
  abs_fields (fst (pop fs k d)) = om_remove (abs_fields fs) k
  /\ snd (pop fs k d) = match om_lookup (abs_fields fs) k with Some f => RField f | None => dflt d end.
Proof.
  intros Hnd. unfold pop. rewrite fields_dict_abs, dict_get_lookup by assumption.
  destruct (om_lookup (abs_fields fs) k) eqn:E; simpl.
  - rewrite filter_abs by assumption. auto.
  - rewrite (om_remove_absent _ k E). auto.
Qed.

(* the dictionary of the specification is the dict of Model/Blocks.v at fields *)
Lemma om_set_dict (m : omap) k f : om_set m k f = dict_set m k f.
Proof. induction m as [|[k' f'] r IH]; simpl; [|rewrite IH]; reflexivity. Qed.
Lemma om_remove_dict (m : omap) k : om_remove m k = dict_del m k.
Proof. induction m as [|[k' f'] r IH]; simpl; [|rewrite IH]; reflexivity. Qed.

Lemma spec_step_nodup m o : NoDup (map fst m) -> NoDup (map fst (fst (spec_step m o))).
Proof.
  intros H. destruct o; simpl; rewrite ?om_set_dict, ?om_remove_dict; auto using dict_keys_set_nodup, dict_keys_del_nodup.
  destruct (om_lookup m k); simpl; rewrite ?om_remove_dict; auto using dict_keys_del_nodup.
Qed.

(* the fields after a call are those of the dictionary after the same call; so is the result, unless the call is an
   item lookup of a reserved name, which the dictionary does not hold *)
Lemma step_abs e o : distinct_keys e ->
  abs (fst (step e o)) = fst (spec_step (abs e) o)
  /\ ((forall k, o = OGetItem k -> k <> k_entrytype /\ k <> k_id) -> snd (step e o) = snd (spec_step (abs e) o)).
Proof.
  unfold distinct_keys, abs. intros Hnd.
  pose proof (fun f => set_field_abs (efields e) f Hnd) as Hset. pose proof (fun k d => pop_abs (efields e) k d Hnd) as Hpop.
  destruct o as [f|k v|k d|k|k d|k|k]; try rewrite spec_pop; cbn [step spec_step fst snd].
  - destruct (Hset f). destruct (set_field (efields e) f). auto.
  - destruct (Hset (mkfield k v None)). destruct (set_field (efields e) (mkfield k v None)). auto.
  - destruct (Hpop k d). destruct (pop (efields e) k d). auto.
  - destruct (Hpop k None). destruct (pop (efields e) k None). auto.
  - unfold get. rewrite fields_dict_abs, dict_get_lookup by assumption. auto.
  - unfold contains, dict_has. rewrite fields_dict_abs, dict_get_lookup by assumption. auto.
  - split; [reflexivity|]. intros Hres. destruct (Hres k eq_refl) as [H1 H2].
    apply str_eqb_neq in H1. apply str_eqb_neq in H2. unfold getitem. rewrite H1, H2.
    rewrite fields_dict_abs, dict_get_lookup by assumption. reflexivity.
Qed.

Lemma step_frame e o : etyp (fst (step e o)) = etyp e /\ ekey (fst (step e o)) = ekey e.
Proof.
  destruct o; simpl; auto; try (destruct (set_field (efields e) _)); try (destruct (pop (efields e) _ _)); simpl; auto.
Qed.

Lemma run_frame ops : forall e, etyp (fst (run ops e)) = etyp e /\ ekey (fst (run ops e)) = ekey e.
Proof.
  induction ops as [|o r IH]; intros e; simpl; auto.
  destruct (step_frame e o) as [H1 H2]. destruct (step e o) as [e1 x]. destruct (IH e1) as [I1 I2].
  destruct (run r e1). simpl in *. split; congruence.
Qed.

Lemma run_abs ops : forall e, distinct_keys e ->
  abs (fst (run ops e)) = fst (run_spec ops (abs e)) /\ distinct_keys (fst (run ops e))
  /\ (no_reserved ops -> snd (run ops e) = snd (run_spec ops (abs e))).
Proof.
  induction ops as [|o r IH]; intros e Hnd; simpl; auto.
  destruct (step_abs e o Hnd) as [H1 H2].
  assert (Hnd1 : distinct_keys (fst (step e o))).
  { unfold distinct_keys. rewrite <- abs_keys. fold (abs (fst (step e o))). rewrite H1.
    apply spec_step_nodup. unfold abs. rewrite abs_keys. assumption. }
  destruct (step e o) as [e1 x]. destruct (spec_step (abs e) o) as [m1 y]. simpl in *. subst m1.
  destruct (IH e1 Hnd1) as (I1 & I2 & I3).
  destruct (run r e1) as [e2 xs]. destruct (run_spec r (abs e1)) as [m2 ys]. simpl in *.
  split; [assumption|]. split; [assumption|]. intros Hres. f_equal.
  - apply H2. intros k Hk. apply Hres. left. assumption.
  - apply I3. intros k Hk. apply Hres. right. assumption.
Qed.

Lemma refines ops : forall e, distinct_keys e -> no_reserved ops ->
  snd (run ops e) = snd (run_spec ops (abs e)) /\ abs (fst (run ops e)) = fst (run_spec ops (abs e)).
Proof. intros e Hnd Hres. destruct (run_abs ops e Hnd) as (H1 & _ & H3). auto. Qed.

Lemma views ops e : distinct_keys e ->
  let e' := fst (run ops e) in
  fields_dict (efields e') = map (fun f => (fkey f, f)) (efields e')
  /\ items e' = (k_entrytype, VStr (etyp e)) :: (k_id, VStr (ekey e)) :: map (fun f => (fkey f, fval f)) (efields e')
  /\ distinct_keys e'.
Proof.
  intros Hnd e'. destruct (run_abs ops e Hnd) as (_ & H2 & _). destruct (run_frame ops e) as [H3 H4]. fold e' in H2, H3, H4.
  repeat split; auto.
  - apply fields_dict_abs. assumption.
  - unfold items. rewrite H3, H4. reflexivity.
Qed.

Lemma reserved ops e :
  getitem (fst (run ops e)) k_entrytype = RVal (VStr (etyp e)) /\ getitem (fst (run ops e)) k_id = RVal (VStr (ekey e)).
Proof.
  destruct (run_frame ops e) as [H1 H2]. unfold getitem. rewrite H1, H2.
  rewrite str_eqb_refl. replace (str_eqb k_id k_entrytype) with false by (vm_compute; reflexivity).
  rewrite str_eqb_refl. auto.
Qed.

(* value has lists of values inside (VList, VTuple, VDict): the generated principle gives no hypothesis for their
   elements, this one does *)
Section ValueInd.
  Variable P : value -> Prop.
  Hypothesis Hstr : forall s, P (VStr s).
  Hypothesis Hint : forall z, P (VInt z).
  Hypothesis Hlist : forall l, Forall P l -> P (VList l).
  Hypothesis Hparts : forall a b c d, P (VParts a b c d).
  Hypothesis Hnone : P VNone.
  Hypothesis Hbool : forall b, P (VBool b).
  Hypothesis Hother : forall n, P (VOther n).
  Hypothesis Htuple : forall l, Forall P l -> P (VTuple l).
  Hypothesis Hdict : forall d, Forall (fun kv => P (snd kv)) d -> P (VDict d).
  Fixpoint value_ind' (v : value) : P v :=
    match v with
    | VStr s => Hstr s
    | VInt z => Hint z
    | VList l => Hlist l (list_ind (Forall P) (Forall_nil P) (fun x _ => Forall_cons x (value_ind' x)) l)
    | VParts a b c d => Hparts a b c d
    | VNone => Hnone
    | VBool b => Hbool b
    | VOther n => Hother n
    | VTuple l => Htuple l (list_ind (Forall P) (Forall_nil P) (fun x _ => Forall_cons x (value_ind' x)) l)
    | VDict d => Hdict d (list_ind (Forall _) (Forall_nil _) (fun kv _ => Forall_cons kv (value_ind' (snd kv))) d)
    end.
End ValueInd.

(* comparisons are conjunctions of comparisons: [a && b && ...] against [A /\ B /\ ...], part by part *)
Lemma andb_iff (a b : bool) (A B : Prop) : (a = true <-> A) -> (b = true <-> B) -> (a && b = true <-> A /\ B).
Proof. intros <- <-. apply andb_true_iff. Qed.
Lemma andb3_iff (a b c : bool) (A B C : Prop) :
  (a = true <-> A) -> (b = true <-> B) -> (c = true <-> C) -> (a && b && c = true <-> A /\ B /\ C).
Proof.
  intros Ha Hb Hc. eapply iff_trans; [apply (andb_iff _ _ _ _ (andb_iff _ _ _ _ Ha Hb) Hc) | apply and_assoc].
Qed.
Lemma andb4_iff (a b c d : bool) (A B C D : Prop) :
  (a = true <-> A) -> (b = true <-> B) -> (c = true <-> C) -> (d = true <-> D) ->
  (a && b && c && d = true <-> A /\ B /\ C /\ D).
Proof.
  intros Ha Hb Hc Hd. eapply iff_trans; [apply (andb_iff _ _ _ _ (andb3_iff _ _ _ _ _ _ Ha Hb Hc) Hd)|].
  split; [intros [(? & ? & ?) ?] | intros (? & ? & ? & ?)]; auto.
Qed.
(* two objects of different classes: == is False and so is "same" *)
Lemma false_iff_False : false = true <-> False.
Proof. split; [discriminate | contradiction]. Qed.

Lemma strs_eqb_eq a b : strs_eqb a b = true <-> a = b.
Proof.
  unfold strs_eqb. revert b. induction a as [|x a IH]; intros [|y b]; simpl; split; intros H; try congruence; try discriminate.
  - apply andb_true_iff in H as [H1 H2]. apply str_eqb_eq in H1. apply IH in H2. congruence.
  - inversion H; subst. rewrite str_eqb_refl. simpl. apply IH. reflexivity.
Qed.

(* the element-wise comparison used for lists and tuples *)
Lemma list_eqb_same (l : list value) :
  Forall (fun a => value_modelled a = true -> forall b, value_eqb a b = true <-> value_same a b) l ->
  value_modelled (VList l) = true -> forall m, value_eqb (VList l) (VList m) = true <-> value_same (VList l) (VList m).
Proof.
  intros HF. induction HF as [|x l Hx HF IH]; intros Hm [|y m]; try exact false_iff_False; [simpl; split; auto|].
  apply andb_true_iff in Hm as [Hm1 Hm2]. apply andb_iff; [apply (Hx Hm1) | apply (IH Hm2)].
Qed.

Lemma value_eqb_same a : value_modelled a = true -> forall b, value_eqb a b = true <-> value_same a b.
Proof.
  induction a using value_ind'; intros Hm y; try discriminate Hm; destruct y; try exact false_iff_False.
  - apply str_eqb_eq.
  - apply Z.eqb_eq.
  - apply Z.eqb_eq.
  - apply list_eqb_same; assumption.
  - apply andb4_iff; apply strs_eqb_eq.
  - simpl. split; auto.
  - apply Z.eqb_eq.
  - apply eqb_true_iff.
  - apply list_eqb_same; assumption.
Qed.

Lemma optZ_eqb_eq a b : optZ_eqb a b = true <-> a = b.
Proof. destruct a, b; simpl; split; intros H; try congruence; try discriminate.
  - apply Z.eqb_eq in H; congruence.
  - inversion H; apply Z.eqb_refl.
Qed.
Lemma optstr_eqb_eq a b : optstr_eqb a b = true <-> a = b.
Proof. destruct a, b; simpl; split; intros H; try congruence; try discriminate.
  - apply str_eqb_eq in H; congruence.
  - inversion H; apply str_eqb_refl.
Qed.

Lemma field_eq_same a b : field_modelled a = true -> (field_py_eq a b = true <-> field_same a b).
Proof. intros Hm. apply andb3_iff; [apply optZ_eqb_eq | apply str_eqb_eq | apply (value_eqb_same _ Hm)]. Qed.

Lemma fields_eq_same a : forallb field_modelled a = true -> forall b, fields_py_eq a b = true <-> list_same field_same a b.
Proof.
  induction a as [|x a IH]; intros Hm [|y b]; try exact false_iff_False; [simpl; split; auto|].
  apply andb_true_iff in Hm as [H1 H2]. apply andb_iff; [apply (field_eq_same x y H1) | apply (IH H2)].
Qed.

(* dict == dict looks every key of the left up in the right and compares the sizes; with distinct keys that is
   the same key set, and then the right has no key that the left lacks *)
Lemma meta_eq_same m1 m2 : meta_modelled m1 = true -> NoDup (map fst m1) -> NoDup (map fst m2) ->
  (meta_py_eq m1 m2 = true <-> meta_same m1 m2).
Proof.
  intros Hm N1 N2. unfold meta_py_eq, meta_same, meta_modelled in *. rewrite forallb_forall in Hm.
  rewrite andb_true_iff, Nat.eqb_eq, forallb_forall, <- (map_length fst m1), <- (map_length fst m2).
  assert (Hpt : forall k v, In (k, v) m1 ->
            (match dict_get m2 k with Some w => value_eqb v w | None => false end = true
             <-> match dict_get m2 k with Some w => value_same v w | None => False end)).
  { intros k v Hin. destruct (dict_get m2 k) as [w|]; [apply value_eqb_same, (Hm _ Hin) | split; [discriminate | contradiction]]. }
  split.
  - intros [Hlen Hall].
    assert (I12 : incl (map fst m1) (map fst m2)).
    { apply dict_keys_incl. intros k G1. destruct (dict_get m1 k) as [v|] eqn:G; [|congruence].
      apply dict_get_in, Hall in G. simpl in G. destruct (dict_get m2 k); [discriminate | discriminate G]. }
    apply (incl_same_length _ _ N1 N2 I12) in Hlen.
    intros k. destruct (dict_get m1 k) as [v|] eqn:G1.
    + apply dict_get_in in G1. apply (Hpt k v G1), (Hall _ G1).
    + destruct (dict_get m2 k) as [w|] eqn:G2; [|exact I].
      apply dict_get_none in G1. apply G1, Hlen, dict_get_key. congruence.
  - intros Hs.
    assert (K : forall k, dict_get m1 k <> None <-> dict_get m2 k <> None).
    { intros k. specialize (Hs k). destruct (dict_get m1 k), (dict_get m2 k); split; congruence || contradiction. }
    split.
    + apply incl_same_length; try assumption; apply dict_keys_incl; intros k; apply K.
    + intros [k v] Hin. apply (Hpt k v Hin). specialize (Hs k). rewrite (dict_get_In m1 k v N1 Hin) in Hs. exact Hs.
Qed.

Lemma hdr_eq_same h1 h2 : meta_modelled (meta h1) = true -> NoDup (map fst (meta h1)) -> NoDup (map fst (meta h2)) ->
  (hdr_py_eq h1 h2 = true <-> hdr_same h1 h2).
Proof. intros Hm N1 N2. apply andb3_iff; [apply optZ_eqb_eq | apply optstr_eqb_eq | apply (meta_eq_same _ _ Hm N1 N2)]. Qed.

Lemma block_eq_same a b : block_modelled a = true -> meta_wf a -> meta_wf b ->
  (block_py_eq a b = true <-> block_same a b).
Proof.
  unfold block_modelled, meta_wf. intros Hm N1 N2. apply andb_true_iff in Hm as [Hmm Hmv].
  pose proof (fun h2 => hdr_eq_same (bhdr a) h2 Hmm N1) as Hh.
  destruct a; try discriminate Hmv; destruct b; try exact false_iff_False.
  - apply andb4_iff; [apply Hh, N2 | apply str_eqb_eq | apply str_eqb_eq | apply (fields_eq_same _ Hmv)].
  - apply andb3_iff; [apply Hh, N2 | apply str_eqb_eq | apply (value_eqb_same _ Hmv)].
  - apply andb_iff; [apply Hh, N2 | apply str_eqb_eq].
  - apply andb_iff; [apply Hh, N2 | apply str_eqb_eq].
  - apply andb_iff; [apply Hh, N2 | apply str_eqb_eq].
Qed.

Lemma value_eqb_refl v : value_eqb v v = true.
Proof.
  induction v using value_ind'; simpl; auto using str_eqb_refl, Z.eqb_refl, eqb_reflx.
  - induction H as [|x l Hx HF IH]; simpl; auto. rewrite Hx, IH. reflexivity.
  - rewrite !(proj2 (strs_eqb_eq _ _) eq_refl). reflexivity.
  - induction H as [|x l Hx HF IH]; simpl; auto. rewrite Hx, IH. reflexivity.
  - induction H as [|[k x] l Hx HF IH]; simpl in *; auto. rewrite str_eqb_refl, Hx, IH. reflexivity.
Qed.
Lemma field_py_eq_refl f : field_py_eq f f = true.
Proof. unfold field_py_eq. rewrite (proj2 (optZ_eqb_eq _ _) eq_refl), str_eqb_refl, value_eqb_refl. reflexivity. Qed.
Lemma fields_py_eq_refl fs : fields_py_eq fs fs = true.
Proof. induction fs; simpl; auto. rewrite field_py_eq_refl. assumption. Qed.
Lemma meta_py_eq_refl m : NoDup (map fst m) -> meta_py_eq m m = true.
Proof.
  intros N. unfold meta_py_eq. rewrite Nat.eqb_refl. simpl. apply forallb_forall. intros [k v] Hin. simpl.
  rewrite (dict_get_In m k v N Hin). apply value_eqb_refl.
Qed.
Lemma hdr_py_eq_refl h : NoDup (map fst (meta h)) -> hdr_py_eq h h = true.
Proof.
  intros N. unfold hdr_py_eq. rewrite (proj2 (optZ_eqb_eq _ _) eq_refl), (proj2 (optstr_eqb_eq _ _) eq_refl), meta_py_eq_refl; auto.
Qed.
Lemma block_py_eq_refl a : is_failed_class a = false -> meta_wf a -> block_py_eq a a = true.
Proof.
  unfold meta_wf. intros Hc N. destruct a; simpl in *; try discriminate Hc;
    rewrite (hdr_py_eq_refl _ N), ?str_eqb_refl, ?fields_py_eq_refl, ?value_eqb_refl; reflexivity.
Qed.

Lemma list_same_eq (l : list value) :
  Forall (fun a => value_plain a = true -> forall b, value_plain b = true -> (value_same a b <-> a = b)) l ->
  value_plain (VList l) = true -> forall m, value_plain (VList m) = true ->
  (value_same (VList l) (VList m) <-> l = m).
Proof.
  intros HF. induction HF as [|x l Hx HF IH]; intros Hp [|y m] Hq; simpl; try (split; [contradiction | discriminate]); [split; auto|].
  simpl in Hp, Hq. apply andb_true_iff in Hp as [H1 H2]. apply andb_true_iff in Hq as [Q1 Q2].
  rewrite (Hx H1 y Q1), (IH H2 m Q2). split; [intros [A B]; congruence | intros E; inversion E; auto].
Qed.

Lemma value_same_plain a : value_plain a = true -> forall b, value_plain b = true -> (value_same a b <-> a = b).
Proof.
  induction a using value_ind'; intros Hp y Hq; try discriminate Hp;
    destruct y; try discriminate Hq; simpl; try (split; [contradiction | discriminate]).
  - split; congruence.
  - split; congruence.
  - rewrite (list_same_eq l H Hp l0 Hq). split; congruence.
  - split; [intros (A & B & C & D); congruence | intros E; inversion E; auto].
  - split; auto.
  - rewrite (list_same_eq l H Hp l0 Hq). split; congruence.
Qed.

From Coq Require Import String.
Definition ex_entry : ent :=
  mkent (lit "article") (lit "k")
        [mkfield (lit "A") (VStr (lit "x")) (Some 1%Z); mkfield (lit "a") (VStr (lit "y")) (Some 2%Z);
         mkfield (lit "ab") (VInt 3) None].
Definition ex_ops : list eop :=
  [OSetItem (lit "a") (VStr (lit "new")); OPop (lit "A") None; OSetField (mkfield (lit "A") VNone (Some 9%Z));
   ODel (lit "zz"); OGetItem (lit "zz"); OGet (lit "ab") None; OIn (lit "a"); OGetItem (lit "a")].

Lemma example_hypotheses : distinct_keys ex_entry /\ no_reserved ex_ops.
Proof.
  split.
  - unfold distinct_keys. simpl. repeat constructor; simpl; intros H; repeat (destruct H as [H|H]; try discriminate H); assumption.
  - intros k Hin. unfold ex_ops in Hin. cbn [In] in Hin.
    repeat (destruct Hin as [Hin|Hin]; [try discriminate Hin; injection Hin as <-; split; intros E; vm_compute in E; discriminate E|]).
    contradiction.
Qed.
(* replace kept the position of "a", the re-added "A" went to the end, the absent lookup raised KeyError *)
Lemma example_run :
  map fkey (efields (fst (run ex_ops ex_entry))) = [lit "a"; lit "ab"; lit "A"]
  /\ nth 4 (snd (run ex_ops ex_entry)) RNone = RKeyError
  /\ nth 7 (snd (run ex_ops ex_entry)) RNone = RVal (VStr (lit "new")).
Proof. vm_compute. repeat split; reflexivity. Qed.

Definition ex_block (v : value) : block :=
  BEntry (mkhdr (Some 3%Z) (Some (lit "@article{k}")) [(lit "m", VInt 1)]) (lit "article") (lit "k")
         [mkfield (lit "t") v (Some 4%Z)].
Lemma example_eq :
  block_modelled (ex_block (VStr (lit "x"))) = true /\ meta_wf (ex_block (VStr (lit "x")))
  /\ block_py_eq (ex_block (VStr (lit "x"))) (ex_block (VStr (lit "x"))) = true
  /\ block_py_eq (ex_block (VStr (lit "x"))) (ex_block (VStr (lit "y"))) = false
  /\ block_py_eq (ex_block (VStr (lit "1"))) (ex_block (VInt 1)) = false.
Proof.
  set (b := ex_block (VStr (lit "x"))). vm_compute in b. split; [reflexivity|]. split; [repeat constructor; intros []|].
  repeat split; reflexivity.
Qed.

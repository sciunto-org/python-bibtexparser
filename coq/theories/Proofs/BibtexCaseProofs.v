(* Known finding K14, machine-checked: the word case of Spec/C13 (which C13_partition proves to be the library's) is not
   the one of BibTeX's von_token_found (Spec/BibtexCase.v) on words that hold a special character or an escape. *)
From Coq Require Import List NArith ZArith Bool String.
Local Open Scope string_scope.
From BP Require Import Base.Chars Model.Blocks Model.Names Spec.C13 Spec.BibtexCase.
Import ListNotations.

Definition lib_von (w : str) : bool := match word_case (atoms w) with Lower => true | _ => false end.

(* D1 .. D5 of the finding, one word each: (library says von, BibTeX says von) *)
Definition k14_words : list (str * (bool * bool)) :=
  [ (lit "{\v{C}}apek", (true, false));    (* D1 first letter in a braced accent argument *)
    (lit "{\'{e}}", (false, true));
    (lit "{\O}rsted", (true, false));      (* D2 built-in control word *)
    (lit "{\aa}Berg", (false, true));
    (lit "{\'}x", (true, false));          (* D3 special character without a letter *)
    (lit "{Val\o}", (true, false));        (* D4 alphabetic escape inside an ordinary group *)
    (lit "{{\'e}}", (true, false)) ].      (* D5 'special character' at level 2 *)

Lemma k14_words_differ :
  forallb (fun x => Bool.eqb (lib_von (fst x)) (fst (snd x)) && Bool.eqb (von_token_found (fst x)) (snd (snd x))
                    && negb (Bool.eqb (lib_von (fst x)) (von_token_found (fst x)))) k14_words = true.
Proof. vm_compute. reflexivity. Qed.

Lemma word_case_refuted : exists w, lib_von w = true /\ von_token_found w = false.
Proof. exists (lit "{\O}rsted"). split; vm_compute; reflexivity. Qed.

Lemma partition_refuted : exists s p w,
  parse_name true s = POk p /\ n_first p = [lit "Bent"] /\ n_von p = [w] /\ n_last p = [lit "Hansen"]
  /\ von_token_found w = false.
Proof.
  exists (lit "Bent {\O}rsted Hansen"), (mkparts [lit "Bent"] [lit "{\O}rsted"] [lit "Hansen"] []), (lit "{\O}rsted").
  repeat split; vm_compute; reflexivity.
Qed.

(* a TEST, not a theorem about all words: forms on which the two agree (words without a backslash, escapes at brace
   level 0, the usual one-letter accents) *)
Definition agree_words : list str := map lit
  ["von"; "Von"; "{von}"; "{V}on"; "{v}On"; "123"; "d'Alembert"; "de"; "la"; "{\'E}douard"; "{\'e}douard"; "{\'e}";
   "\'{E}mile"; "\v{C}apek"; "\AA"; "\o"; "\ss{}"; "\L{}ukasz"; "\'Emile"; "{Val\'{e}ry}"; "{\i}x"; "M{\""u}ller"; "{\""U}ber"].
Lemma agree_sample : forallb (fun w => Bool.eqb (lib_von w) (von_token_found w)) agree_words = true.
Proof. vm_compute. reflexivity. Qed.

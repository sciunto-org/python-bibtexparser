(* C13, partition layer: the model's partition (Python slices with negative indices, index and rindex on the case
   lists) equals the readable partition_spec on every list of sections. *)
From Coq Require Import List NArith ZArith Bool Lia PeanoNat.
From BP Require Import Base.Chars Model.Names Spec.C13.
Import ListNotations.

Section Slices.
Context {T : Type}.
Implicit Types l : list T.

Lemma firstn_min l i : firstn (Nat.min (length l) i) l = firstn i l.
Proof.
  destruct (Nat.le_gt_cases i (length l)) as [H|H].
  - rewrite Nat.min_r by exact H. reflexivity.
  - rewrite Nat.min_l by lia. rewrite firstn_all. rewrite firstn_all2 by lia. reflexivity.
Qed.
Lemma skipn_min l i : skipn (Nat.min (length l) i) l = skipn i l.
Proof.
  destruct (Nat.le_gt_cases i (length l)) as [H|H].
  - rewrite Nat.min_r by exact H. reflexivity.
  - rewrite Nat.min_l by lia. rewrite skipn_all. rewrite skipn_all2 by lia. reflexivity.
Qed.

Lemma pyslice_nat l a b lo hi :
  py_bound (Z.of_nat (length l)) 0 a = Z.of_nat lo ->
  py_bound (Z.of_nat (length l)) (Z.of_nat (length l)) b = Z.of_nat hi ->
  pyslice l a b = firstn (hi - lo) (skipn lo l).
Proof.
  unfold pyslice. intros -> ->. rewrite Nat2Z.id. f_equal. lia.
Qed.

Lemma py_bound_pos n d i : py_bound (Z.of_nat n) d (Some (Z.of_nat i)) = Z.of_nat (Nat.min n i).
Proof. unfold py_bound. destruct (Z.ltb_spec (Z.of_nat i) 0); lia. Qed.
(* a negative index counts from the end *)
Lemma py_bound_neg n d i : (i < n)%nat -> py_bound (Z.of_nat n) d (Some (Z.of_nat i - Z.of_nat n)%Z) = Z.of_nat i.
Proof. intros H. unfold py_bound. destruct (Z.ltb_spec (Z.of_nat i - Z.of_nat n) 0); lia. Qed.

Lemma pyslice_to_pos l i : pyslice l None (Some (Z.of_nat i)) = firstn i l.
Proof. rewrite (pyslice_nat l None (Some (Z.of_nat i)) 0 (Nat.min (length l) i) eq_refl (py_bound_pos _ _ _)), Nat.sub_0_r. apply firstn_min. Qed.

Lemma pyslice_from_pos l i : pyslice l (Some (Z.of_nat i)) None = skipn i l.
Proof.
  rewrite (pyslice_nat l (Some (Z.of_nat i)) None (Nat.min (length l) i) (length l) (py_bound_pos _ _ _) eq_refl), skipn_min.
  apply firstn_all2. rewrite skipn_length. lia.
Qed.

Lemma pyslice_to_neg l i : (i < length l)%nat ->
  pyslice l None (Some (Z.of_nat i - Z.of_nat (length l))%Z) = firstn i l.
Proof. intros Hi. rewrite (pyslice_nat l None (Some _) 0 i eq_refl (py_bound_neg _ _ _ Hi)), Nat.sub_0_r. reflexivity. Qed.

Lemma pyslice_from_neg l i : (i < length l)%nat ->
  pyslice l (Some (Z.of_nat i - Z.of_nat (length l))%Z) None = skipn i l.
Proof.
  intros Hi. rewrite (pyslice_nat l (Some _) None i (length l) (py_bound_neg _ _ _ Hi) eq_refl).
  apply firstn_all2. rewrite skipn_length. lia.
Qed.

Lemma pyslice_mid_neg l i j : (i < length l)%nat -> (j < length l)%nat ->
  pyslice l (Some (Z.of_nat i - Z.of_nat (length l))%Z) (Some (Z.of_nat j - Z.of_nat (length l))%Z)
  = firstn (j - i) (skipn i l).
Proof. intros Hi Hj. exact (pyslice_nat l _ _ i j (py_bound_neg _ _ _ Hi) (py_bound_neg _ _ _ Hj)). Qed.

(* l[:-1] *)
Lemma pyslice_init l x : pyslice (l ++ [x]) None (Some (-1)%Z) = l.
Proof.
  replace (-1)%Z with (Z.of_nat (length l) - Z.of_nat (length (l ++ [x])))%Z by (rewrite app_length; simpl; lia).
  rewrite pyslice_to_neg by (rewrite app_length; simpl; lia).
  rewrite <- (Nat.add_0_r (length l)), firstn_app_2. simpl. apply app_nil_r.
Qed.
End Slices.

Definition isz (c : Z) : bool := (c =? 0)%Z.
Definition lead (cs : list Z) : nat := leading (fun c => negb (isz c)) cs.
Definition upl (cs : list Z) : nat := upto_last isz cs.

Lemma has0_cons x r : has0 (x :: r) = isz x || has0 r.
Proof. unfold has0, isz. cbn [existsb]. rewrite (Z.eqb_sym 0 x). reflexivity. Qed.
Lemma has0_app a b : has0 (a ++ b) = has0 a || has0 b.
Proof. unfold has0. apply existsb_app. Qed.
Lemma has0_rev a : has0 (rev a) = has0 a.
Proof.
  induction a as [|x a IH]; [reflexivity|]. simpl rev. rewrite has0_app, IH, !has0_cons.
  change (has0 []) with false. rewrite orb_false_r. apply orb_comm.
Qed.
Lemma index0_cons x r : index0 (x :: r) = if isz x then 0%Z else (1 + index0 r)%Z.
Proof. reflexivity. Qed.
Lemma lead_cons x r : lead (x :: r) = if isz x then 0%nat else S (lead r).
Proof. unfold lead. cbn [leading]. destruct (isz x); reflexivity. Qed.
Lemma upl_cons x r : upl (x :: r) = match upl r with O => if isz x then 1%nat else 0%nat | S k => S (S k) end.
Proof. reflexivity. Qed.

Lemma index0_lead cs : has0 cs = true -> index0 cs = Z.of_nat (lead cs) /\ (lead cs < length cs)%nat.
Proof.
  induction cs as [|x r IH]; [discriminate|]. rewrite has0_cons, index0_cons, lead_cons. intros H.
  destruct (isz x); cbn [orb length] in *.
  - split; [reflexivity | lia].
  - destruct (IH H) as [I1 I2]. rewrite I1. split; lia.
Qed.

Lemma lead_all cs : has0 cs = false -> lead cs = length cs.
Proof.
  induction cs as [|x r IH]; [reflexivity|]. rewrite has0_cons, lead_cons. intros H.
  destruct (isz x); [discriminate|]. cbn [orb length] in *. rewrite IH by exact H. reflexivity.
Qed.

Lemma upl_none cs : has0 cs = false -> upl cs = 0%nat.
Proof.
  induction cs as [|x r IH]; [reflexivity|]. rewrite has0_cons, upl_cons. intros H.
  destruct (isz x); [discriminate|]. cbn [orb] in H. rewrite IH by exact H. reflexivity.
Qed.

Lemma upl_some cs : has0 cs = true -> (1 <= upl cs <= length cs)%nat.
Proof.
  induction cs as [|x r IH]; [discriminate|]. rewrite has0_cons, upl_cons. intros H. simpl length.
  destruct (has0 r) eqn:Hr.
  - specialize (IH eq_refl). destruct (upl r); lia.
  - rewrite (upl_none r Hr). rewrite orb_false_r in H. rewrite H. lia.
Qed.

Lemma index0_app a b : index0 (a ++ b) = if has0 a then index0 a else (Z.of_nat (length a) + index0 b)%Z.
Proof.
  induction a as [|x a IH]; [reflexivity|]. rewrite <- app_comm_cons, !index0_cons, has0_cons, IH.
  destruct (isz x); [reflexivity|]. simpl orb. destruct (has0 a); [reflexivity|]. simpl length. lia.
Qed.

Lemma index0_rev cs : has0 cs = true -> index0 (rev cs) = Z.of_nat (length cs - upl cs).
Proof.
  induction cs as [|x r IH]; [discriminate|]. rewrite has0_cons. intros H. simpl rev.
  rewrite index0_app, has0_rev, upl_cons. simpl length.
  destruct (has0 r) eqn:Hr.
  - rewrite IH by reflexivity. pose proof (upl_some r Hr) as U. destruct (upl r); [lia|]. f_equal.
  - rewrite (upl_none r Hr). rewrite orb_false_r in H. rewrite H.
    rewrite rev_length, index0_cons, H. lia.
Qed.

Lemma lead_lt_upl cs : has0 cs = true -> (lead cs < upl cs)%nat.
Proof.
  induction cs as [|x r IH]; [discriminate|]. rewrite has0_cons, lead_cons, upl_cons. intros H.
  destruct (isz x); cbn [orb length] in *.
  - destruct (upl r); lia.
  - specialize (IH H). destruct (upl r); lia.
Qed.

Lemma lead_snoc body x : lead (body ++ [x]) = if has0 body then lead body else (length body + (if isz x then 0 else 1))%nat.
Proof.
  induction body as [|y b IH].
  - simpl app. rewrite lead_cons. destruct (isz x); reflexivity.
  - rewrite <- app_comm_cons, !lead_cons, has0_cons, IH. destruct (isz y); [reflexivity|]. simpl orb.
    destruct (has0 b); simpl length; lia.
Qed.

Definition zw := (str * Z)%type.
Definition c2w (z : Z) : wcase := if (z =? 0)%Z then Lower else if (z =? 1)%Z then Upper else Caseless.
Definition cw (x : zw) : cword := (fst x, c2w (snd x)).

Lemma is_lower_cw x : is_lower (cw x) = isz (snd x).
Proof. unfold is_lower, cw, c2w, isz. simpl. destruct (snd x =? 0)%Z; [reflexivity|]. destruct (snd x =? 1)%Z; reflexivity. Qed.

Lemma leading_map {A B} (f : A -> B) p l : leading p (map f l) = leading (fun x => p (f x)) l.
Proof. induction l as [|x l IH]; simpl; [reflexivity|]. destruct (p (f x)); [rewrite IH|]; reflexivity. Qed.
Lemma upto_last_map {A B} (f : A -> B) p l : upto_last p (map f l) = upto_last (fun x => p (f x)) l.
Proof. induction l as [|x l IH]; simpl; [reflexivity|]. rewrite IH. reflexivity. Qed.
Lemma leading_ext {A} (p q : A -> bool) l : (forall x, p x = q x) -> leading p l = leading q l.
Proof. intros E. induction l as [|x l IH]; simpl; [reflexivity|]. rewrite E, IH. reflexivity. Qed.
Lemma upto_last_ext {A} (p q : A -> bool) l : (forall x, p x = q x) -> upto_last p l = upto_last q l.
Proof. intros E. induction l as [|x l IH]; simpl; [reflexivity|]. rewrite E, IH. reflexivity. Qed.

Lemma removelast_map {A B} (f : A -> B) l : removelast (map f l) = map f (removelast l).
Proof.
  induction l as [|x l IH]; [reflexivity|]. destruct l as [|y l]; [reflexivity|].
  change (removelast (map f (x :: y :: l))) with (f x :: removelast (map f (y :: l))).
  rewrite IH. reflexivity.
Qed.

Lemma lead_spec (sec : list zw) : leading (fun x => negb (is_lower x)) (map cw sec) = lead (map snd sec).
Proof.
  unfold lead. rewrite !leading_map. apply leading_ext. intros x. rewrite is_lower_cw. reflexivity.
Qed.
Lemma upl_spec (sec : list zw) : upto_last is_lower (map cw sec) = upl (map snd sec).
Proof.
  unfold upl. rewrite !upto_last_map. apply upto_last_ext. intros x. apply is_lower_cw.
Qed.

Lemma map_fst_cw (l : list zw) : map fst (map cw l) = map fst l.
Proof. rewrite map_map. reflexivity. Qed.

Lemma von_end_spec (sec : list zw) : von_end (map cw sec) = upl (map snd (removelast sec)).
Proof. unfold von_end. rewrite removelast_map. apply upl_spec. Qed.

Lemma removelast_length {A} (l : list A) : length (removelast l) = pred (length l).
Proof.
  induction l as [|x l IH]; [reflexivity|]. destruct l as [|y l]; [reflexivity|].
  change (removelast (x :: y :: l)) with (x :: removelast (y :: l)).
  change (length (x :: removelast (y :: l))) with (S (length (removelast (y :: l)))). rewrite IH. reflexivity.
Qed.

(* The branch of Model.Names.partition for a single section of three or more words, as a function of the section's
   words p0 and cases cs; partition_eq identifies the two by conversion.  spec_form1 is the same branch of
   Spec.C13.partition_spec, and form1_eq relates them. *)
Definition model_form1 (p0 : list str) (cs : list Z) : parts :=
  if has0 cs then
    let firstl := (index0 cs - Z.of_nat (length cs))%Z in
    let lastl := if has0 (pyslice cs None (Some (-1)%Z))
                 then (- index0 (rev (pyslice cs None (Some (-1)%Z))) - 2)%Z
                 else (-2)%Z in
    mkparts (pyslice p0 None (Some firstl)) (pyslice p0 (Some firstl) (Some (lastl + 1)%Z))
            (pyslice p0 (Some (lastl + 1)%Z) None) []
  else mkparts (pyslice p0 None (Some (-1)%Z)) [] (pyslice p0 (Some (-1)%Z) None) [].

Definition spec_form1 (sec : list cword) : parts :=
  let f := leading (fun x => negb (is_lower x)) (removelast sec) in
  let k := Nat.max f (von_end sec) in
  mkparts (map fst (firstn f sec)) (map fst (firstn (k - f) (skipn f sec))) (map fst (skipn k sec)) [].

Lemma map_firstn_cw n (l : list zw) : map fst (firstn n (map cw l)) = firstn n (map fst l).
Proof. rewrite firstn_map, map_fst_cw. symmetry. apply firstn_map. Qed.
Lemma map_skipn_cw n (l : list zw) : map fst (skipn n (map cw l)) = skipn n (map fst l).
Proof. rewrite skipn_map, map_fst_cw. symmetry. apply skipn_map. Qed.

Lemma map_firstn_skipn_cw a b (l : list zw) : map fst (firstn a (skipn b (map cw l))) = firstn a (skipn b (map fst l)).
Proof. rewrite skipn_map, firstn_map, map_fst_cw, <- firstn_map, <- skipn_map. reflexivity. Qed.

Lemma form1_eq (bz : list zw) (lz : zw) :
  model_form1 (map fst (bz ++ [lz])) (map snd (bz ++ [lz])) = spec_form1 (map cw (bz ++ [lz])).
Proof.
  set (sec := bz ++ [lz]).
  set (ws := map fst sec). set (cs := map snd sec). set (cb := map snd bz).
  assert (Hn : length sec = S (length bz)) by (unfold sec; rewrite app_length; simpl; lia).
  assert (Hws : length ws = S (length bz)) by (unfold ws; rewrite map_length; exact Hn).
  assert (Hcs : length cs = S (length bz)) by (unfold cs; rewrite map_length; exact Hn).
  assert (Hcb : length cb = length bz) by (unfold cb; apply map_length).
  assert (Ecs : cs = cb ++ [snd lz]) by (unfold cs, cb, sec; rewrite map_app; reflexivity).
  assert (Ebody : pyslice cs None (Some (-1)%Z) = cb) by (rewrite Ecs; apply pyslice_init).
  unfold spec_form1.
  assert (Ermv : removelast sec = bz) by (unfold sec; apply removelast_last).
  rewrite removelast_map, lead_spec, von_end_spec, Ermv. fold cb.
  rewrite map_firstn_cw, map_firstn_skipn_cw, map_skipn_cw. fold ws.
  unfold model_form1. rewrite Ebody.
  destruct (has0 cs) eqn:H0.
  - destruct (index0_lead cs H0) as [I1 I2]. rewrite I1.
    destruct (has0 cb) eqn:Hb.
    + rewrite index0_rev by exact Hb.
      pose proof (upl_some cb Hb) as U. pose proof (lead_lt_upl cb Hb) as LU.
      assert (El : lead cs = lead cb) by (rewrite Ecs, lead_snoc, Hb; reflexivity).
      rewrite El in *.
      replace (- Z.of_nat (length cb - upl cb) - 2 + 1)%Z with (Z.of_nat (upl cb) - Z.of_nat (length ws))%Z by lia.
      rewrite Hcs, <- Hws.
      rewrite pyslice_to_neg, pyslice_mid_neg, pyslice_from_neg by lia.
      rewrite Nat.max_r by lia. reflexivity.
    + assert (El : lead cs = length cb).
      { rewrite Ecs, lead_snoc, Hb. rewrite Ecs, has0_app, Hb, has0_cons in H0. simpl in H0.
        rewrite orb_false_r in H0. rewrite H0. lia. }
      rewrite El in *. rewrite (lead_all cb Hb), (upl_none cb Hb).
      replace (-2 + 1)%Z with (Z.of_nat (length cb) - Z.of_nat (length ws))%Z by lia.
      rewrite Hcs, <- Hws.
      rewrite pyslice_to_neg, pyslice_mid_neg, pyslice_from_neg by lia.
      rewrite Nat.max_l by lia. reflexivity.
  - assert (Hb : has0 cb = false).
    { rewrite Ecs, has0_app in H0. apply orb_false_iff in H0. tauto. }
    rewrite (lead_all cb Hb), (upl_none cb Hb).
    replace (-1)%Z with (Z.of_nat (length cb) - Z.of_nat (length ws))%Z by lia.
    rewrite pyslice_to_neg, pyslice_from_neg by lia.
    rewrite Nat.max_l by lia. rewrite Nat.sub_diag. reflexivity.
Qed.

(* von and Last as Model.Names.partition takes them from the first of several sections (partition_shape says so) *)
Definition model_sec0 (s0 : list str) (lcases : list Z) : list str * list str :=
  match s0 with
  | [_] => ([], s0)
  | _ => if has0 lcases then
           let split := (rindex0 (pyslice lcases None (Some (-1)%Z)) (-1) + 1)%Z in
           (pyslice s0 None (Some split), pyslice s0 (Some split) None)
         else ([], s0)
  end.

Lemma sec0_eq (sec0 : list zw) :
  model_sec0 (map fst sec0) (map snd sec0)
  = (map fst (firstn (von_end (map cw sec0)) (map cw sec0)), map fst (skipn (von_end (map cw sec0)) (map cw sec0))).
Proof.
  rewrite von_end_spec, map_firstn_cw, map_skipn_cw.
  destruct sec0 as [|a [|b r]].
  - reflexivity.
  - reflexivity.
  - set (sec := a :: b :: r).
    destruct (exists_last (l := sec)) as (bz & lz & E); [discriminate|].
    assert (Hm : model_sec0 (map fst sec) (map snd sec)
                 = if has0 (map snd sec) then
                     let split := (rindex0 (pyslice (map snd sec) None (Some (-1)%Z)) (-1) + 1)%Z in
                     (pyslice (map fst sec) None (Some split), pyslice (map fst sec) (Some split) None)
                   else ([], map fst sec)) by reflexivity.
    rewrite Hm. clear Hm. rewrite E. rewrite removelast_last.
    set (cb := map snd bz). set (cs := map snd (bz ++ [lz])).
    assert (Ecs : cs = cb ++ [snd lz]) by (unfold cs, cb; rewrite map_app; reflexivity).
    assert (Ebody : pyslice cs None (Some (-1)%Z) = cb) by (rewrite Ecs; apply pyslice_init).
    rewrite Ebody.
    assert (Hsplit : (rindex0 cb (-1) + 1)%Z = Z.of_nat (upl cb)).
    { unfold rindex0. destruct (has0 cb) eqn:Hb.
      - rewrite index0_rev by exact Hb. pose proof (upl_some cb Hb). lia.
      - rewrite (upl_none cb Hb). reflexivity. }
    destruct (has0 cs) eqn:H0.
    + cbv zeta. rewrite Hsplit. rewrite pyslice_to_pos, pyslice_from_pos. reflexivity.
    + assert (Hb : has0 cb = false).
      { rewrite Ecs, has0_app in H0. apply orb_false_iff in H0. tauto. }
      rewrite (upl_none cb Hb). reflexivity.
Qed.

Definition words_nonempty (Zs : list (list zw)) : Prop := Forall (Forall (fun x : zw => fst x <> [])) Zs.

Lemma truthy_first_ok (sec : list zw) : Forall (fun x : zw => fst x <> []) sec ->
  (if truthy_first (map fst sec) then map fst sec else []) = map fst sec.
Proof.
  intros H. destruct sec as [|a r]; [reflexivity|]. inversion H as [|? ? Ha Hr]; subst.
  simpl. destruct (fst a); [contradiction|reflexivity].
Qed.

Lemma last_map {A B} (f : A -> B) l d : last (map f l) (f d) = f (last l d).
Proof. induction l as [|x l IH]; [reflexivity|]. destruct l as [|y l]; [reflexivity|]. exact IH. Qed.

Lemma partition_shape (s0 : list str) (cs0 : list Z) (pf pj : list str) :
  (let first := pf in let jr := pj in
   match s0 with
   | [_] => mkparts first [] s0 jr
   | _ => if has0 cs0 then
            let split := (rindex0 (pyslice cs0 None (Some (-1)%Z)) (-1) + 1)%Z in
            mkparts first (pyslice s0 None (Some split)) (pyslice s0 (Some split) None) jr
          else mkparts first [] s0 jr
   end) = mkparts pf (fst (model_sec0 s0 cs0)) (snd (model_sec0 s0 cs0)) pj.
Proof.
  unfold model_sec0. destruct s0 as [|a [|b r]]; cbv zeta; [|reflexivity|]; destruct (has0 cs0); cbn [fst snd]; reflexivity.
Qed.

Lemma partition_eq (Zs : list (list zw)) : words_nonempty Zs ->
  partition (map (map fst) Zs) (map (map snd) Zs) = partition_spec (map (map cw) Zs).
Proof.
  intros Hne.
  destruct Zs as [|sec0 rest].
  - reflexivity.
  - destruct rest as [|s1 rest].
    + destruct sec0 as [|a [|b [|c r]]]; try reflexivity.
      set (sec := a :: b :: c :: r).
      destruct (exists_last (l := sec)) as (bz & lz & E); [discriminate|].
      change (partition (map (map fst) [sec]) (map (map snd) [sec])) with (model_form1 (map fst sec) (map snd sec)).
      change (partition_spec (map (map cw) [sec])) with (spec_form1 (map cw sec)).
      rewrite E. apply form1_eq.
    + inversion Hne as [|? ? H0 Hrest]; subst.
      assert (Hlast : Forall (fun x : zw => fst x <> []) (last (s1 :: rest) [])).
      { clear - Hrest. revert s1 Hrest. induction rest as [|s2 rest IH]; intros s1 Hrest.
        - inversion Hrest; assumption.
        - inversion Hrest; subst. apply (IH s2). assumption. }
      assert (Efirst : last (map (map fst) (sec0 :: s1 :: rest)) [] = map fst (last (s1 :: rest) [])).
      { change (@nil str) with (map (@fst str Z) []) at 1. rewrite last_map. reflexivity. }
      unfold partition.
      change (map (map fst) (sec0 :: s1 :: rest)) with (map fst sec0 :: map fst s1 :: map (map fst) rest) at 1.
      cbv iota beta.
      rewrite Efirst.
      change (nth 0 (map (map fst) (sec0 :: s1 :: rest)) []) with (map fst sec0).
      change (nth 0 (map (map snd) (sec0 :: s1 :: rest)) []) with (map snd sec0).
      rewrite partition_shape.
      rewrite sec0_eq. cbn [fst snd].
      rewrite truthy_first_ok by exact Hlast.
      unfold partition_spec. cbn [map].
      change (last (map cw s1 :: map (map cw) rest) []) with (last (map (map cw) (s1 :: rest)) (map cw [])).
      rewrite last_map, map_fst_cw.
      f_equal.
      destruct rest as [|s2 [|s3 rest]].
      * reflexivity.
      * cbn [length map Nat.eqb Nat.sub nth andb].
        inversion Hrest as [|? ? H1 Hr2]; subst.
        rewrite truthy_first_ok by exact H1. rewrite map_fst_cw. reflexivity.
      * reflexivity.
Qed.

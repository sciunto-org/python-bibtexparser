(* C09: duplicate keys are never merged or dropped (first wins, the rest are flagged), and duplicate field
   names inside one entry (every occurrence kept in source order, the wrapper lists exactly the repeated names).
   First Library.add (Model/LibAdd.v) against the index-free specification Spec/C09.v; then the field
   bookkeeping of the splitter's open block (ob_field / entry_block), on the record alone and for every block the
   machine emits. *)
From Coq Require Import String List NArith ZArith Bool Lia.
From Coq Require Import Sorting.Permutation.
From BP Require Import Base.Chars Model.Blocks Model.LibAdd Model.Splitter Spec.C09 Proofs.Common Proofs.SplitTotal.
Import ListNotations.
Local Open Scope list_scope.

(* first_entry and first_string are one search, for two ways of reading a key off a block *)
Definition entry_key (b : block) : option str := match b with BEntry _ _ k _ => Some k | _ => None end.
Definition string_key (b : block) : option str := match b with BString _ k _ => Some k | _ => None end.
Fixpoint first_by (key : block -> option str) (k : str) (bs : list block) : option block :=
  match bs with
  | [] => None
  | b :: r => match key b with
              | Some k' => if str_eqb k k' then Some b else first_by key k r
              | None => first_by key k r
              end
  end.
Lemma first_entry_by k bs : first_entry k bs = first_by entry_key k bs.
Proof. induction bs as [|x bs IH]; [reflexivity|]. destruct x; cbn [first_entry first_by entry_key]; rewrite IH; reflexivity. Qed.
Lemma first_string_by k bs : first_string k bs = first_by string_key k bs.
Proof. induction bs as [|x bs IH]; [reflexivity|]. destruct x; cbn [first_string first_by string_key]; rewrite IH; reflexivity. Qed.

Section FirstBy.
  Variable key : block -> option str.
  Lemma first_by_app k a b :
    first_by key k (a ++ b) = match first_by key k a with Some x => Some x | None => first_by key k b end.
  Proof.
    induction a as [|x a IH]; [reflexivity|]. cbn [app first_by].
    destruct (key x) as [k'|]; [destruct (str_eqb k k'); [reflexivity|]|]; apply IH.
  Qed.
  Lemma first_by_some k bs b : first_by key k bs = Some b ->
    key b = Some k /\ exists pre post, bs = pre ++ b :: post /\ first_by key k pre = None.
  Proof.
    induction bs as [|x bs IH]; [discriminate|]. cbn [first_by]. intros H.
    assert (Skip : first_by key k bs = Some b -> first_by key k [x] = None ->
                   key b = Some k /\ exists pre post, x :: bs = pre ++ b :: post /\ first_by key k pre = None).
    { intros H' Hx. destruct (IH H') as (Hk & pre & post & E & N). split; [exact Hk|]. exists (x :: pre), post.
      split; [rewrite E; reflexivity|]. change (x :: pre) with ([x] ++ pre). rewrite first_by_app, Hx. exact N. }
    destruct (key x) as [k'|] eqn:Kx; [|apply Skip; [exact H | cbn [first_by]; rewrite Kx; reflexivity]].
    destruct (str_eqb k k') eqn:E; [|apply Skip; [exact H | cbn [first_by]; rewrite Kx, E; reflexivity]].
    apply str_eqb_eq in E. subst k'. injection H as <-. split; [exact Kx|]. exists [], bs. split; reflexivity.
  Qed.
  Lemma first_by_none k bs : first_by key k bs = None <-> forall b, In b bs -> key b <> Some k.
  Proof.
    induction bs as [|x bs IH]; [split; [intros _ b [] | reflexivity]|]. cbn [first_by In].
    assert (Skip : key x <> Some k -> (first_by key k bs = None <-> forall b, x = b \/ In b bs -> key b <> Some k)).
    { intros Hx. rewrite IH. split; [intros H b [<-|Hb]; [exact Hx | exact (H b Hb)] | intros H b Hb; apply H; right; exact Hb]. }
    destruct (key x) as [k'|] eqn:Kx; [|apply Skip; discriminate].
    destruct (str_eqb k k') eqn:E; [|apply Skip; apply str_eqb_neq in E; congruence].
    apply str_eqb_eq in E. subst k'. split; [discriminate|]. intros H. destruct (H x (or_introl eq_refl) Kx).
  Qed.
End FirstBy.

Lemma first_string_app k a b :
  first_string k (a ++ b) = match first_string k a with Some x => Some x | None => first_string k b end.
Proof. rewrite !first_string_by. apply first_by_app. Qed.

(* a key is absent iff no top-level plain entry has it (entries inside wrappers do not count) *)
Lemma first_entry_none k bs : first_entry k bs = None <-> (forall h t f, ~ In (BEntry h t k f) bs).
Proof.
  rewrite first_entry_by, first_by_none. split.
  - intros H h t f Hin. exact (H _ Hin eq_refl).
  - intros H b Hin E. destruct b; try discriminate E. injection E as ->. exact (H _ _ _ Hin).
Qed.
Lemma first_string_none k bs : first_string k bs = None <-> (forall h v, ~ In (BString h k v) bs).
Proof.
  rewrite first_string_by, first_by_none. split.
  - intros H h v Hin. exact (H _ Hin eq_refl).
  - intros H b Hin E. destruct b; try discriminate E. injection E as ->. exact (H _ _ Hin).
Qed.

Lemma flag_all_snoc bs : forall pre b, flag_all pre (bs ++ [b]) = flag_all pre bs ++ [flagged (pre ++ bs) b].
Proof.
  induction bs as [|x bs IH]; intros pre b; cbn [app flag_all].
  - rewrite app_nil_r. reflexivity.
  - rewrite IH, <- app_assoc. reflexivity.
Qed.
Lemma flag_all_length bs : forall pre, length (flag_all pre bs) = length bs.
Proof. induction bs as [|x bs IH]; intros pre; cbn [flag_all length]; [reflexivity | rewrite IH; reflexivity]. Qed.

(* with unique keys, looking up in insertion order or in most-recent-first order is the same *)
Lemma dict_get_rev {V} (d : list (str * V)) k : NoDup (map fst d) -> dict_get (rev d) k = dict_get d k.
Proof.
  induction d as [|[k' v] d IH]; [reflexivity|]. cbn [map fst rev]. intros H. inversion H as [|? ? Hn Hd]; subst.
  rewrite dict_get_cat, (IH Hd). cbn [dict_get].
  destruct (str_eqb k k') eqn:E; [|destruct (dict_get d k); reflexivity].
  apply str_eqb_eq in E. subst k'. apply dict_get_none in Hn. rewrite Hn. reflexivity.
Qed.

(* the invariant of Library.add: [before] = the SOURCE blocks added so far *)
Record lib_inv (l : libst) (before : list block) : Prop := mk_lib_inv {
  inv_blocks : lrev l = rev (flag_all [] before);
  inv_ents : forall k, dict_get (ents l) k = first_entry k before;
  inv_strs : forall k, dict_get (strs l) k = first_string k before;
  inv_ents_nodup : NoDup (map fst (ents l));
  inv_strs_nodup : NoDup (map fst (strs l)) }.

Lemma lib_inv0 : lib_inv lib0 [].
Proof. split; try reflexivity; constructor. Qed.

Lemma add_block_lrev l before b : lib_inv l before -> lrev (add_block l b) = flagged before b :: lrev l.
Proof.
  intros I.
  destruct b as [h t k f|h k v|? ?|? ?|? ?|? ?|? ? ?|? ? ? ?|? ? ?]; cbn [add_block flagged]; try reflexivity.
  - rewrite <- (inv_ents _ _ I k). destruct (dict_get (ents l) k); reflexivity.
  - rewrite <- (inv_strs _ _ I k). destruct (dict_get (strs l) k); reflexivity.
Qed.

(* both indexes register a block under its key unless the key is taken *)
Definition reg (key : block -> option str) (d : list (str * block)) (b : block) : list (str * block) :=
  match key b with
  | Some k => match dict_get d k with Some _ => d | None => (k, b) :: d end
  | None => d
  end.
Lemma add_block_ents l b : ents (add_block l b) = reg entry_key (ents l) b.
Proof.
  destruct b; try reflexivity; cbn [add_block reg entry_key];
    [destruct (dict_get (ents l) key) | destruct (dict_get (strs l) key)]; reflexivity.
Qed.
Lemma add_block_strs l b : strs (add_block l b) = reg string_key (strs l) b.
Proof.
  destruct b; try reflexivity; cbn [add_block reg string_key];
    [destruct (dict_get (ents l) key) | destruct (dict_get (strs l) key)]; reflexivity.
Qed.

(* so an index that holds the first block per key keeps doing so *)
Lemma reg_first key d before b : (forall k, dict_get d k = first_by key k before) ->
  forall k, dict_get (reg key d b) k = first_by key k (before ++ [b]).
Proof.
  intros H k. rewrite first_by_app, <- H. unfold reg. cbn [first_by].
  destruct (key b) as [k'|]; [|destruct (dict_get d k); reflexivity].
  destruct (str_eqb k k') eqn:E.
  - apply str_eqb_eq in E. subst k'. destruct (dict_get d k) eqn:G; [exact G|].
    cbn [dict_get]. rewrite str_eqb_refl. reflexivity.
  - destruct (dict_get d k'); [|cbn [dict_get]; rewrite E]; destruct (dict_get d k); reflexivity.
Qed.
Lemma reg_nodup key d b : NoDup (map fst d) -> NoDup (map fst (reg key d b)).
Proof.
  intros H. unfold reg. destruct (key b) as [k|]; [|exact H]. destruct (dict_get d k) eqn:G; [exact H|].
  cbn [map fst]. constructor; [apply dict_get_none; exact G | exact H].
Qed.

Lemma add_block_inv l before b : lib_inv l before -> lib_inv (add_block l b) (before ++ [b]).
Proof.
  intros I. split.
  - rewrite (add_block_lrev l before b I), flag_all_snoc, rev_app_distr, (inv_blocks _ _ I). reflexivity.
  - intros k. rewrite add_block_ents, first_entry_by. apply reg_first.
    intros k'. rewrite <- first_entry_by. apply (inv_ents _ _ I).
  - intros k. rewrite add_block_strs, first_string_by. apply reg_first.
    intros k'. rewrite <- first_string_by. apply (inv_strs _ _ I).
  - rewrite add_block_ents. apply reg_nodup, (inv_ents_nodup _ _ I).
  - rewrite add_block_strs. apply reg_nodup, (inv_strs_nodup _ _ I).
Qed.

Lemma lib_add_all_inv bs : forall l before, lib_inv l before -> lib_inv (lib_add_all bs l) (before ++ bs).
Proof.
  induction bs as [|b bs IH]; intros l before I; cbn [lib_add_all fold_left].
  - rewrite app_nil_r. exact I.
  - replace (before ++ b :: bs) with ((before ++ [b]) ++ bs) by (rewrite <- app_assoc; reflexivity).
    apply (IH (add_block l b)). apply add_block_inv. exact I.
Qed.

Lemma lib_of_inv bs : lib_inv (lib_of bs) bs.
Proof. exact (lib_add_all_inv bs lib0 [] lib_inv0). Qed.

(* the blocks of Library(blocks=bs) are the source blocks, each flagged w.r.t. the source blocks before it *)
Theorem rebuild_flag_all : forall bs, rebuild bs = flag_all [] bs.
Proof.
  intros bs. unfold rebuild, lblocks. rewrite rv_rev, (inv_blocks _ _ (lib_of_inv bs)), rev_involutive. reflexivity.
Qed.

(* no block merged or dropped *)
Theorem rebuild_length : forall bs, length (rebuild bs) = length bs.
Proof. intros bs. rewrite rebuild_flag_all. apply flag_all_length. Qed.

(* position by position: the i-th block is the i-th source block, flagged against the source blocks before it *)
Lemma flag_all_nth bs : forall pre i d, i < length bs ->
  nth i (flag_all pre bs) d = flagged (pre ++ firstn i bs) (nth i bs d).
Proof.
  induction bs as [|x bs IH]; intros pre i d Hi; cbn [length] in Hi; [lia|].
  destruct i as [|i]; cbn [flag_all nth firstn].
  - rewrite app_nil_r. reflexivity.
  - rewrite IH by lia. rewrite <- app_assoc. reflexivity.
Qed.
Theorem rebuild_nth : forall bs i d, i < length bs ->
  nth i (rebuild bs) d = flagged (firstn i bs) (nth i bs d).
Proof. intros bs i d Hi. rewrite rebuild_flag_all. apply (flag_all_nth bs [] i d Hi). Qed.

(* first wins *)
Theorem entries_dict_first : forall bs k, dict_get (ents (lib_of bs)) k = first_entry k bs.
Proof. intros bs k. apply (inv_ents _ _ (lib_of_inv bs)). Qed.
Theorem strings_dict_first : forall bs k, dict_get (strs (lib_of bs)) k = first_string k bs.
Proof. intros bs k. apply (inv_strs _ _ (lib_of_inv bs)). Qed.

(* the same for the insertion-ordered views (keys are unique, so the lookup order does not matter) *)
Theorem ents_keys_unique : forall bs, NoDup (map fst (ents (lib_of bs))).
Proof. intros bs. apply (inv_ents_nodup _ _ (lib_of_inv bs)). Qed.
Theorem strs_keys_unique : forall bs, NoDup (map fst (strs (lib_of bs))).
Proof. intros bs. apply (inv_strs_nodup _ _ (lib_of_inv bs)). Qed.
Theorem entries_dict_view_first : forall bs k, dict_get (entries_dict (lib_of bs)) k = first_entry k bs.
Proof.
  intros bs k. unfold entries_dict. rewrite rv_rev, dict_get_rev by apply ents_keys_unique. apply entries_dict_first.
Qed.
Theorem strings_dict_view_first : forall bs k, dict_get (strings_dict (lib_of bs)) k = first_string k bs.
Proof.
  intros bs k. unfold strings_dict. rewrite rv_rev, dict_get_rev by apply strs_keys_unique. apply strings_dict_first.
Qed.

(* the registered block is a plain top-level entry with that key, and nothing before it has the key *)
Theorem entries_dict_value : forall bs k b, dict_get (ents (lib_of bs)) k = Some b ->
  exists pre post h t f, b = BEntry h t k f /\ bs = pre ++ b :: post /\ first_entry k pre = None.
Proof.
  intros bs k b H. rewrite entries_dict_first, first_entry_by in H.
  destruct (first_by_some _ _ _ _ H) as (Hk & pre & post & E & N). rewrite <- first_entry_by in N.
  destruct b as [h t k' f| | | | | | | |]; try discriminate Hk. injection Hk as ->. exists pre, post, h, t, f. auto.
Qed.
Theorem strings_dict_value : forall bs k b, dict_get (strs (lib_of bs)) k = Some b ->
  exists pre post h v, b = BString h k v /\ bs = pre ++ b :: post /\ first_string k pre = None.
Proof.
  intros bs k b H. rewrite strings_dict_first, first_string_by in H.
  destruct (first_by_some _ _ _ _ H) as (Hk & pre & post & E & N). rewrite <- first_string_by in N.
  destruct b as [|h k' v| | | | | | |]; try discriminate Hk. injection Hk as ->. exists pre, post, h, v. auto.
Qed.

(* a key is registered iff some top-level plain entry has it; in particular duplicate-field blocks are never
   registered: a key whose entries all sit inside wrappers is absent *)
Corollary entry_key_absent_iff : forall bs k,
  dict_get (ents (lib_of bs)) k = None <-> (forall h t f, ~ In (BEntry h t k f) bs).
Proof. intros bs k. rewrite entries_dict_first. apply first_entry_none. Qed.
Corollary dupfield_not_registered : forall bs k,
  (forall h t f, ~ In (BEntry h t k f) bs) -> dict_get (ents (lib_of bs)) k = None.
Proof. intros bs k. apply entry_key_absent_iff. Qed.
Corollary string_key_absent_iff : forall bs k,
  dict_get (strs (lib_of bs)) k = None <-> (forall h v, ~ In (BString h k v) bs).
Proof. intros bs k. rewrite strings_dict_first. apply first_string_none. Qed.

Theorem split_is_flagged : forall t bs, split_raw t = Blocks bs -> split t = Blocks (flag_all [] bs).
Proof. intros t bs H. unfold split. rewrite H, rebuild_flag_all. reflexivity. Qed.

Fixpoint cnt (k : str) (l : list str) : nat :=
  match l with [] => 0 | x :: r => (if str_eqb k x then 1 else 0) + cnt k r end.
Fixpoint has_dup (l : list str) : bool :=
  match l with [] => false | x :: r => mem_str x r || has_dup r end.

Lemma cnt_In k l : In k l <-> 1 <= cnt k l.
Proof.
  induction l as [|x l IH]; cbn [In cnt]; [lia|].
  destruct (str_eqb k x) eqn:E.
  - apply str_eqb_eq in E. subst. split; [lia | auto].
  - apply str_eqb_neq in E. rewrite IH. split; [intros [D|D]; [congruence | lia] | intros D; right; lia].
Qed.
Lemma cnt_app k a b : cnt k (a ++ b) = cnt k a + cnt k b.
Proof. induction a as [|x a IH]; cbn [app cnt]; [reflexivity | rewrite IH; lia]. Qed.
Lemma cnt_rev k l : cnt k (rev l) = cnt k l.
Proof. induction l as [|x l IH]; cbn [rev cnt]; [reflexivity | rewrite cnt_app, IH; cbn [cnt]; lia]. Qed.
Lemma cnt_perm k a b : Permutation a b -> cnt k a = cnt k b.
Proof. induction 1; cbn [cnt]; lia. Qed.

Lemma has_dup_cnt l : has_dup l = true <-> exists k, 2 <= cnt k l.
Proof.
  induction l as [|x l IH]; cbn [has_dup cnt].
  - split; [discriminate | intros [k H]; lia].
  - rewrite orb_true_iff, IH, mem_str_In, cnt_In. split.
    + intros [H|[k H]]; [exists x; rewrite str_eqb_refl; lia | exists k; lia].
    + intros [k H]. destruct (str_eqb k x) eqn:E.
      * apply str_eqb_eq in E. subst. left. lia.
      * right. exists k. lia.
Qed.
Lemma has_dup_false_NoDup l : has_dup l = false <-> NoDup l.
Proof.
  induction l as [|x l IH]; cbn [has_dup]; [split; [constructor | reflexivity]|].
  rewrite orb_false_iff, IH, <- not_true_iff_false, mem_str_In. split.
  - intros [H1 H2]. constructor; assumption.
  - intros H. inversion H; subst. split; assumption.
Qed.
Lemma has_dup_true_not_NoDup l : has_dup l = true <-> ~ NoDup l.
Proof. rewrite <- has_dup_false_NoDup. destruct (has_dup l); split; congruence. Qed.
Lemma has_dup_rev l : has_dup (rev l) = has_dup l.
Proof.
  destruct (has_dup l) eqn:E.
  - apply has_dup_cnt in E. apply has_dup_cnt. destruct E as [k H]. exists k. rewrite cnt_rev. exact H.
  - apply has_dup_false_NoDup in E. apply has_dup_false_NoDup. apply NoDup_rev. exact E.
Qed.

(* sorted(...) only permutes *)
Lemma insert_str_perm x l : Permutation (insert_str x l) (x :: l).
Proof.
  induction l as [|y l IH]; cbn [insert_str]; [apply Permutation_refl|].
  destruct (str_ltb y x); [|apply Permutation_refl].
  apply perm_trans with (y :: x :: l); [apply perm_skip; exact IH | apply perm_swap].
Qed.
Theorem sort_strs_perm : forall l, Permutation (sort_strs l) l.
Proof.
  induction l as [|x l IH]; cbn [sort_strs fold_right]; [apply perm_nil|].
  apply perm_trans with (x :: fold_right insert_str [] l); [apply insert_str_perm | apply perm_skip; exact IH].
Qed.
Corollary sort_strs_In l k : In k (sort_strs l) <-> In k l.
Proof. split; apply Permutation_in; [|apply Permutation_sym]; apply sort_strs_perm. Qed.
Corollary sort_strs_NoDup l : NoDup l -> NoDup (sort_strs l).
Proof. apply Permutation_NoDup. apply Permutation_sym. apply sort_strs_perm. Qed.
Corollary sort_strs_length l : List.length (sort_strs l) = List.length l.
Proof. apply Permutation_length. apply sort_strs_perm. Qed.

(* an update of the open block that does not touch flds_rev / seen / dups *)
Definition with_av (a v : str) (fl : Z) (r : str) (o : openb) : openb :=
  mkob (b_line o) r (typ_rev o) a v (etyp o) (ekey o) fl (flds_rev o) (seen o) (dups o).
Lemma ob_raw_with_av c o : ob_raw c o = with_av (a_rev o) (v_rev o) (f_line o) (c :: raw_rev o) o.
Proof. reflexivity. Qed.
Lemma ob_raw_a_with_av c o : ob_raw_a c o = with_av (c :: a_rev o) (v_rev o) (f_line o) (c :: raw_rev o) o.
Proof. reflexivity. Qed.
Lemma ob_raw_v_with_av c o : ob_raw_v c o = with_av (a_rev o) (c :: v_rev o) (f_line o) (c :: raw_rev o) o.
Proof. reflexivity. Qed.
Lemma ob_eq_with_av c ln o : ob_eq c ln o = with_av (a_rev o) [] ln (c :: raw_rev o) o.
Proof. reflexivity. Qed.

Definition keys_of (o : openb) : list str := map fkey (flds_rev o).
(* the field completed by ob_field *)
Definition field_of (o : openb) : field :=
  mkfield (strip (rv (a_rev o))) (VStr (strip (rv (v_rev o)))) (Some (f_line o)).

Lemma ob_field_flds o : flds_rev (ob_field o) = field_of o :: flds_rev o.
Proof. reflexivity. Qed.
Lemma with_av_flds a v fl r o : flds_rev (with_av a v fl r o) = flds_rev o.
Proof. reflexivity. Qed.

(* the invariant: seen = the keys, each once; dups = the keys occurring at least twice, each once *)
Record fld_inv (o : openb) : Prop := mk_fld_inv {
  fi_seen_nodup : NoDup (seen o);
  fi_seen : forall k, In k (seen o) <-> In k (keys_of o);
  fi_dups_nodup : NoDup (dups o);
  fi_dups : forall k, In k (dups o) <-> 2 <= cnt k (keys_of o) }.

Definition fresh (o : openb) : Prop := flds_rev o = [] /\ seen o = [] /\ dups o = [].

Lemma fld_inv_same o o' :
  flds_rev o' = flds_rev o -> seen o' = seen o -> dups o' = dups o -> fld_inv o -> fld_inv o'.
Proof. intros E1 E2 E3 [A B C D]. split; unfold keys_of in *; rewrite ?E1, ?E2, ?E3; assumption. Qed.

Lemma fld_inv_fresh o : fresh o -> fld_inv o.
Proof.
  intros (E1 & E2 & E3). split; unfold keys_of; rewrite ?E1, ?E2, ?E3; cbn [map cnt In]; try constructor; try tauto; lia.
Qed.
Lemma fld_inv_with_av a v fl r o : fld_inv o -> fld_inv (with_av a v fl r o).
Proof. apply fld_inv_same; reflexivity. Qed.

(* the same invariant on bare lists: sn = the names ks, each once; dp = the names occurring at least twice in ks,
   each once.  ob_field's update of the two lists for one more name keeps it. *)
Definition scan_inv (sn dp ks : list str) : Prop :=
  NoDup sn /\ (forall k, In k sn <-> In k ks) /\ NoDup dp /\ (forall k, In k dp <-> 2 <= cnt k ks).

(* what ob_field does to the seen and the duplicate names, and that replayed on a list of names *)
Definition seen_with (k : str) (sn : list str) : list str := if mem_str k sn then sn else k :: sn.
Definition dups_with (k : str) (sn dp : list str) : list str :=
  if mem_str k sn && negb (mem_str k dp) then k :: dp else dp.
Fixpoint dups_after (sn dp names : list str) : list str :=
  match names with
  | [] => dp
  | k :: r => dups_after (seen_with k sn) (dups_with k sn dp) r
  end.

Lemma scan_inv_step x sn dp ks : scan_inv sn dp ks -> scan_inv (seen_with x sn) (dups_with x sn dp) (x :: ks).
Proof.
  unfold seen_with, dups_with. intros (A & B & C & D).
  assert (Bx : In x sn <-> 1 <= cnt x ks) by (rewrite <- cnt_In; apply B).
  assert (Dx := D x).
  split; [|split; [|split]].
  - destruct (mem_str x sn) eqn:M; [exact A|].
    apply not_true_iff_false in M. rewrite mem_str_In in M. constructor; assumption.
  - intros k. cbn [In]. destruct (mem_str x sn) eqn:M.
    + apply mem_str_In in M. rewrite B. split; [tauto|]. intros [E|H]; [subst k; apply B; exact M | exact H].
    + cbn [In]. rewrite B. tauto.
  - destruct (mem_str x sn); cbn [andb]; [|exact C].
    destruct (mem_str x dp) eqn:M; cbn [negb]; [exact C|].
    apply not_true_iff_false in M. rewrite mem_str_In in M. constructor; assumption.
  - intros k. cbn [cnt]. destruct (str_eqb k x) eqn:E.
    + apply str_eqb_eq in E. subst k.
      destruct (mem_str x sn) eqn:M; cbn [andb].
      * apply mem_str_In in M. apply Bx in M. destruct (mem_str x dp) eqn:M2; cbn [negb].
        -- apply mem_str_In in M2. split; [lia | intros _; exact M2].
        -- split; [lia | intros _; left; reflexivity].
      * apply not_true_iff_false in M. rewrite mem_str_In, Bx in M. split; [|lia].
        intros H. apply Dx in H. lia.
    + apply str_eqb_neq in E.
      destruct (mem_str x sn && negb (mem_str x dp)); [|rewrite D; lia].
      cbn [In]. rewrite D. split; [intros [H|H]; [congruence | lia] | intros H; right; lia].
Qed.

Lemma fld_inv_scan o : fld_inv o <-> scan_inv (seen o) (dups o) (keys_of o).
Proof.
  split; [intros [A B C D]; exact (conj A (conj B (conj C D))) | intros (A & B & C & D); exact (mk_fld_inv o A B C D)].
Qed.

Lemma fld_inv_field o : fld_inv o -> fld_inv (ob_field o).
Proof. intros I. apply fld_inv_scan. apply (scan_inv_step (strip (rv (a_rev o)))), fld_inv_scan, I. Qed.

Lemma dups_after_spec names : forall sn dp ks, scan_inv sn dp ks ->
  exists sn', scan_inv sn' (dups_after sn dp names) (rev names ++ ks).
Proof.
  induction names as [|x r IH]; intros sn dp ks H; cbn [dups_after rev app]; [exists sn; exact H|].
  destruct (IH _ _ _ (scan_inv_step x _ _ _ H)) as [sn' H']. exists sn'. rewrite <- app_assoc. exact H'.
Qed.

(* any interleaving of completed fields and other updates, from a fresh open block *)
Inductive act := AField | ASet (a v : str) (fl : Z) (r : str).
Definition do_act (o : openb) (x : act) : openb :=
  match x with AField => ob_field o | ASet a v fl r => with_av a v fl r o end.
Definition run_acts (xs : list act) (o : openb) : openb := fold_left do_act xs o.
(* the fields completed along the way, in source order *)
Fixpoint emitted (xs : list act) (o : openb) : list field :=
  match xs with
  | [] => []
  | AField :: r => field_of o :: emitted r (do_act o AField)
  | x :: r => emitted r (do_act o x)
  end.

Lemma run_acts_inv xs : forall o, fld_inv o -> fld_inv (run_acts xs o).
Proof.
  induction xs as [|x xs IH]; intros o I; cbn [run_acts fold_left]; [exact I|].
  apply IH. destruct x; cbn [do_act]; [apply fld_inv_field | apply fld_inv_with_av]; exact I.
Qed.

Theorem ob_field_invariant : forall xs o, fresh o -> fld_inv (run_acts xs o).
Proof. intros xs o F. apply run_acts_inv, fld_inv_fresh, F. Qed.

Theorem run_acts_fields : forall xs o, rv (flds_rev (run_acts xs o)) = rv (flds_rev o) ++ emitted xs o.
Proof.
  induction xs as [|x xs IH]; intros o; cbn [run_acts fold_left emitted].
  - rewrite app_nil_r. reflexivity.
  - unfold run_acts in IH. rewrite IH. destruct x; cbn [do_act]; [|reflexivity].
    rewrite ob_field_flds, !rv_rev. cbn [rev]. rewrite <- app_assoc. reflexivity.
Qed.
Corollary run_acts_fields_fresh : forall xs o, fresh o -> rv (flds_rev (run_acts xs o)) = emitted xs o.
Proof. intros xs o (E & _). rewrite run_acts_fields, E. reflexivity. Qed.

Lemma scan_inv_dups_nil sn dp ks : scan_inv sn dp ks -> (dp = [] <-> has_dup ks = false).
Proof.
  intros (_ & _ & _ & D). split.
  - intros E. destruct (has_dup ks) eqn:H; [|reflexivity].
    apply has_dup_cnt in H. destruct H as [k H]. apply D in H. rewrite E in H. destruct H.
  - intros H. destruct dp as [|d ds]; [reflexivity|].
    assert (G : has_dup ks = true) by (apply has_dup_cnt; exists d; apply D; left; reflexivity).
    congruence.
Qed.
Lemma fld_inv_dups_nil o : fld_inv o -> (dups o = [] <-> has_dup (keys_of o) = false).
Proof. intros I. apply (scan_inv_dups_nil (seen o)), fld_inv_scan, I. Qed.

Definition inner_entry (o : openb) : block := BEntry (hdr_of o) (etyp o) (ekey o) (rev (flds_rev o)).

(* the emitted block: wrapper iff some field name repeats; the inner entry has all occurrences in source order *)
Theorem entry_block_spec : forall o, fld_inv o ->
  entry_block o = if has_dup (keys_of o)
                  then BDupField (hdr_of o) (sort_strs (dups o)) (inner_entry o)
                  else inner_entry o.
Proof.
  intros o I. unfold entry_block, inner_entry. rewrite rv_rev.
  destruct (fld_inv_dups_nil o I) as [H1 H2].
  destruct (dups o) as [|d ds] eqn:E.
  - rewrite (H1 eq_refl). reflexivity.
  - destruct (has_dup (keys_of o)); [reflexivity|]. discriminate (H2 eq_refl).
Qed.

Theorem entry_block_dup_iff : forall o, fld_inv o ->
  (entry_block o = BDupField (hdr_of o) (sort_strs (dups o)) (inner_entry o) <-> ~ NoDup (keys_of o)).
Proof.
  intros o I. rewrite (entry_block_spec o I), <- has_dup_true_not_NoDup.
  destruct (has_dup (keys_of o)); split; try reflexivity; unfold inner_entry; discriminate.
Qed.
Theorem entry_block_plain_iff : forall o, fld_inv o ->
  (entry_block o = inner_entry o <-> NoDup (keys_of o)).
Proof.
  intros o I. rewrite (entry_block_spec o I), <- has_dup_false_NoDup.
  destruct (has_dup (keys_of o)); split; try reflexivity; unfold inner_entry; discriminate.
Qed.

(* the wrapper's key list: exactly the names occurring at least twice among the entry's fields, each once *)
Theorem dup_keys_spec : forall o, fld_inv o ->
  Permutation (sort_strs (dups o)) (dups o) /\ NoDup (sort_strs (dups o)) /\
  forall k, In k (sort_strs (dups o)) <-> 2 <= cnt k (map fkey (rev (flds_rev o))).
Proof.
  intros o I. split; [apply sort_strs_perm|]. split; [apply sort_strs_NoDup, (fi_dups_nodup o I)|].
  intros k. rewrite sort_strs_In, map_rev, cnt_rev. apply (fi_dups o I).
Qed.

Theorem entry_block_after_acts : forall xs o, fresh o ->
  let o' := run_acts xs o in
  rv (flds_rev o') = emitted xs o /\
  NoDup (seen o') /\ (forall k, In k (seen o') <-> In k (map fkey (emitted xs o))) /\
  NoDup (dups o') /\ (forall k, In k (dups o') <-> 2 <= cnt k (map fkey (emitted xs o))) /\
  entry_block o' =
    if has_dup (map fkey (emitted xs o))
    then BDupField (hdr_of o') (sort_strs (dups o')) (BEntry (hdr_of o') (etyp o') (ekey o') (emitted xs o))
    else BEntry (hdr_of o') (etyp o') (ekey o') (emitted xs o).
Proof.
  intros xs o F o'. assert (I : fld_inv o') by (apply ob_field_invariant; exact F).
  assert (E : rv (flds_rev o') = emitted xs o) by (apply run_acts_fields_fresh; exact F).
  assert (K : map fkey (emitted xs o) = rev (keys_of o')) by (rewrite <- E, rv_rev, map_rev; reflexivity).
  split; [exact E|]. split; [apply (fi_seen_nodup o' I)|].
  split; [intros k; rewrite K, <- in_rev; apply (fi_seen o' I)|].
  split; [apply (fi_dups_nodup o' I)|].
  split; [intros k; rewrite K, cnt_rev; apply (fi_dups o' I)|].
  rewrite K, has_dup_rev, (entry_block_spec o' I). unfold inner_entry. rewrite <- rv_rev, E. reflexivity.
Qed.

(* a block is consistent about repeated field names *)
Definition dup_ok (b : block) : Prop :=
  match b with
  | BEntry _ _ _ fs => NoDup (map fkey fs)
  | BDupField h ks (BEntry h' _ _ fs) =>
      h' = h /\ ~ NoDup (map fkey fs) /\ NoDup ks /\ forall k, In k ks <-> 2 <= cnt k (map fkey fs)
  | BDupField _ _ _ => False
  | _ => True
  end.

Lemma entry_block_dup_ok o : fld_inv o -> dup_ok (entry_block o).
Proof.
  intros I. rewrite (entry_block_spec o I). unfold inner_entry.
  assert (K : map fkey (rev (flds_rev o)) = rev (keys_of o)) by (rewrite map_rev; reflexivity).
  destruct (has_dup (keys_of o)) eqn:H; cbn [dup_ok]; rewrite K.
  - split; [reflexivity|]. split.
    + apply has_dup_true_not_NoDup. rewrite has_dup_rev. exact H.
    + split; [apply sort_strs_NoDup, (fi_dups_nodup o I)|].
      intros k. rewrite sort_strs_In, cnt_rev. apply (fi_dups o I).
  - apply NoDup_rev. apply has_dup_false_NoDup. exact H.
Qed.

Lemma fld_inv_upd u c ln o : fld_inv o -> fld_inv (ob_upd u c ln o).
Proof.
  destruct u; cbn [ob_upd]; try (apply fld_inv_same; reflexivity).
  - intros _. apply fld_inv_fresh. repeat split.
  - intros _. apply fld_inv_fresh. repeat split.
  - intros I. apply (fld_inv_same (ob_field o)); try reflexivity. apply fld_inv_field, I.
Qed.

(* every block emitted by the splitter: a plain entry has no repeated field name; a duplicate-field wrapper
   contains an entry (same header) with a repeated name, all occurrences kept, and lists exactly the names
   occurring at least twice, each once *)
Theorem split_raw_dup_ok : forall t bs, split_raw t = Blocks bs -> Forall dup_ok bs.
Proof.
  apply (split_raw_emits fld_inv dup_ok); try (intros; exact I).
  - intros ln c. apply fld_inv_fresh. repeat split.
  - apply fld_inv_upd.
  - intros kd o. destruct kd; exact I.
  - apply entry_block_dup_ok.
Qed.

Lemma flagged_dup_ok pre b : dup_ok b -> dup_ok (flagged pre b).
Proof.
  intros H. destruct b as [h t k f|h k v|? ?|? ?|? ?|? ?|? ? ?|? ? ? ?|? ? ?]; cbn [flagged]; try exact H.
  - destruct (first_entry k pre); [exact I | exact H].
  - destruct (first_string k pre); [exact I | exact H].
Qed.
Lemma flag_all_dup_ok bs : forall pre, Forall dup_ok bs -> Forall dup_ok (flag_all pre bs).
Proof.
  induction bs as [|b bs IH]; intros pre H; cbn [flag_all]; [constructor|].
  inversion H; subst. constructor; [apply flagged_dup_ok; assumption | apply IH; assumption].
Qed.
Theorem split_dup_ok : forall t bs, split t = Blocks bs -> Forall dup_ok bs.
Proof.
  intros t bs H. destruct (split_raw t) as [bs0|] eqn:E.
  - rewrite (split_is_flagged t bs0 E) in H. inversion H; subst.
    apply flag_all_dup_ok. apply (split_raw_dup_ok t bs0 E).
  - unfold split in H. rewrite E in H. discriminate.
Qed.

Definition ex_text : str :=
  lit "@a{k, x = {1}} @b{k, y = 2, y = 3, x = 4, z = 5, z = 6, y = 7} @string{k = ""s""} @c{k} @string{k = ""t""} @d{j, p = 1}"%string.
Definition blocks_of (o : outcome) : list block := match o with Blocks bs => bs | Raised => [] end.
Definition ex_raw : list block := blocks_of (split_raw ex_text).
Definition ex_out : list block := blocks_of (split ex_text).
Definition keys_in (b : block) : list str := match b with BEntry _ _ _ fs => map fkey fs | _ => [] end.

(* before Library.add: the repeated-field entry is already wrapped, the same-key blocks are still plain *)
Example ex_raw_classes : map class_of ex_raw = [CEntry; CDupField; CString; CEntry; CString; CEntry].
Proof. vm_compute. reflexivity. Qed.
(* after Library.add, = flag_all; @c{k} and the second @string{k} are flagged, @b{k,...} (DupField) is
   not a duplicate KEY block and does not make @c{k} "first" either: @a{k} is *)
Example ex_rebuild_flag_all : rebuild ex_raw = flag_all [] ex_raw.
Proof. vm_compute. reflexivity. Qed.
Example ex_split_is_flagged : split ex_text = Blocks (flag_all [] ex_raw).
Proof. vm_compute. reflexivity. Qed.
Example ex_out_classes : map class_of ex_out = [CEntry; CDupField; CString; CDupKey; CDupKey; CEntry].
Proof. vm_compute. reflexivity. Qed.
Example ex_rebuild_length : List.length (rebuild ex_raw) = 6 /\ List.length ex_raw = 6.
Proof. vm_compute. split; reflexivity. Qed.
(* the wrappers expose the key, the FIRST block and the complete duplicate, at the duplicate's position *)
Example ex_dupkey_entry :
  nth 3 ex_out (BImpl hdr0 []) =
  BDupKey (mkhdr (sl (bhdr (nth 3 ex_raw (BImpl hdr0 [])))) (raw (bhdr (nth 3 ex_raw (BImpl hdr0 [])))) [])
          (lit "k") (nth 0 ex_raw (BImpl hdr0 [])) (nth 3 ex_raw (BImpl hdr0 [])).
Proof. vm_compute. reflexivity. Qed.
Example ex_dupkey_string :
  match nth 4 ex_out (BImpl hdr0 []) with
  | BDupKey _ k p d => k = lit "k" /\ p = nth 2 ex_raw (BImpl hdr0 []) /\ d = nth 4 ex_raw (BImpl hdr0 [])
  | _ => False
  end.
Proof. vm_compute. repeat split; reflexivity. Qed.
(* first wins; entries and strings are separate indexes *)
Example ex_entries_dict :
  dict_get (ents (lib_of ex_raw)) (lit "k") = Some (nth 0 ex_raw (BImpl hdr0 [])) /\
  dict_get (ents (lib_of ex_raw)) (lit "k") = first_entry (lit "k") ex_raw /\
  dict_get (strs (lib_of ex_raw)) (lit "k") = Some (nth 2 ex_raw (BImpl hdr0 [])) /\
  dict_get (strs (lib_of ex_raw)) (lit "k") = first_string (lit "k") ex_raw /\
  map fst (entries_dict (lib_of ex_raw)) = [lit "k"; lit "j"] /\
  map fst (strings_dict (lib_of ex_raw)) = [lit "k"].
Proof. vm_compute. repeat split; reflexivity. Qed.
(* a key that only a duplicate-field entry has is absent; a later plain entry with that key is the live one *)
Definition ex_text2 : str := lit "@b{q, y = 2, y = 3} @c{q} @e{r, u = 1, u = 2}"%string.
Example ex_dupfield_not_registered :
  let raw := blocks_of (split_raw ex_text2) in
  map class_of (blocks_of (split ex_text2)) = [CDupField; CEntry; CDupField] /\
  dict_get (ents (lib_of raw)) (lit "q") = Some (nth 1 raw (BImpl hdr0 [])) /\
  dict_get (ents (lib_of raw)) (lit "r") = None.
Proof. vm_compute. repeat split; reflexivity. Qed.
(* the duplicate-field wrapper: sorted repeated names; inner entry with every occurrence in source order *)
Example ex_dupfield_block :
  match nth 1 ex_out (BImpl hdr0 []) with
  | BDupField h ks (BEntry h' t k fs) =>
      h' = h /\ ks = [lit "y"; lit "z"] /\ t = lit "b" /\ k = lit "k" /\
      map fkey fs = [lit "y"; lit "y"; lit "x"; lit "z"; lit "z"; lit "y"] /\
      map fval fs = [VStr (lit "2"); VStr (lit "3"); VStr (lit "4"); VStr (lit "5"); VStr (lit "6"); VStr (lit "7")]
  | _ => False
  end.
Proof. vm_compute. repeat split; reflexivity. Qed.
(* the open-block record alone: fields y z y x z y with other updates interleaved *)
Definition ex_acts : list act :=
  [ASet (rv (lit " y ")) (rv (lit "1")) 3 []; AField; ASet (rv (lit "z")) [] 4 (lit "junk"); AField;
   ASet (rv (lit "y")) [] 5 []; AField; ASet (rv (lit "x")) [] 5 []; ASet (rv (lit "x")) (rv (lit "{v}")) 6 []; AField;
   ASet (rv (lit "z")) [] 7 []; AField; ASet (rv (lit "y")) [] 8 []; AField; ASet [] [] 9 []].
Example ex_ob_field :
  let o := run_acts ex_acts (ob0 0 c_at) in
  map fkey (rv (flds_rev o)) = [lit "y"; lit "z"; lit "y"; lit "x"; lit "z"; lit "y"] /\
  rv (flds_rev o) = emitted ex_acts (ob0 0 c_at) /\
  seen o = [lit "x"; lit "z"; lit "y"] /\ dups o = [lit "z"; lit "y"] /\
  has_dup (keys_of o) = true /\
  entry_block o = BDupField (hdr_of o) [lit "y"; lit "z"] (inner_entry o).
Proof. vm_compute. repeat split; reflexivity. Qed.
Example ex_sort_strs : sort_strs [lit "z"; lit "y"; lit "a"; lit "zz"] = [lit "a"; lit "y"; lit "z"; lit "zz"].
Proof. vm_compute. reflexivity. Qed.

(* incremental parsing: adding to an existing library is adding to the concatenated block list *)
Lemma lib_add_all_app : forall a b l, lib_add_all (a ++ b) l = lib_add_all b (lib_add_all a l).
Proof. intros a b l. unfold lib_add_all. apply fold_left_app. Qed.

Lemma split_into_flag_all : forall prev t bs, split_raw t = Blocks bs ->
  split_into prev t = Blocks (flag_all [] (prev ++ bs)).
Proof.
  intros prev t bs H. unfold split_into. rewrite H. f_equal.
  rewrite <- rebuild_flag_all. unfold rebuild, lib_of. now rewrite lib_add_all_app.
Qed.

Lemma split_into_nil : forall t, split_into [] t = split t.
Proof. intros t. unfold split_into, split, rebuild, lib_of. reflexivity. Qed.

Print Assumptions rebuild_flag_all.
Print Assumptions rebuild_length.
Print Assumptions rebuild_nth.
Print Assumptions entries_dict_first.
Print Assumptions strings_dict_first.
Print Assumptions entries_dict_view_first.
Print Assumptions strings_dict_view_first.
Print Assumptions entries_dict_value.
Print Assumptions strings_dict_value.
Print Assumptions dupfield_not_registered.
Print Assumptions entry_key_absent_iff.
Print Assumptions string_key_absent_iff.
Print Assumptions split_is_flagged.
Print Assumptions sort_strs_perm.
Print Assumptions ob_field_invariant.
Print Assumptions run_acts_fields.
Print Assumptions entry_block_spec.
Print Assumptions entry_block_dup_iff.
Print Assumptions entry_block_plain_iff.
Print Assumptions dup_keys_spec.
Print Assumptions entry_block_after_acts.
Print Assumptions split_raw_dup_ok.
Print Assumptions split_dup_ok.


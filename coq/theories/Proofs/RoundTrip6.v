(* C05: the first parse of a well-formed document yields clean content (outside K7), and the round trip. *)
From Coq Require Import List NArith ZArith Bool Lia String.
From BP Require Import Base.Chars Model.Blocks Model.Splitter Model.Interpolate Model.Grammar Model.Pipeline
  Spec.C05 Spec.C09 Proofs.Common Proofs.LibAddProofs Proofs.EnclosingProofs Proofs.SplitGrammar
  Proofs.PipelineTotal Proofs.RoundTrip Proofs.RoundTrip2 Proofs.RoundTrip3 Proofs.RoundTrip4 Proofs.RoundTrip5.
Import ListNotations.

(* A character is 128 * code + flags (Base/Chars.v), the word flag is bit 4.  An upper-case letter has flags 22;
   lower-casing adds 32 * 128 + 60 = 4156, and 22 + 60 = 82 still has bit 4 set. *)
Lemma lower_ch_word c : isword c = true -> isword (lower_ch c) = true.
Proof.
  intros W. unfold lower_ch. destruct ((asc 65 <=? c)%N && (c <=? asc 90)%N && (N.land c 127 =? 22)%N) eqn:E; [|exact W].
  apply andb_true_iff in E as [_ E]. apply N.eqb_eq in E. unfold isword.
  change 127%N with (N.ones 7) in E. rewrite N.land_ones in E.
  rewrite <- (N.mod_pow2_bits_low (c + 4156) 7 4) by lia.
  rewrite N.add_mod by discriminate. rewrite E. reflexivity.
Qed.
Lemma typ_clean_lower typ : typ_ok typ = true ->
  negb (starts_with s_comment (lower typ)) && negb (starts_with s_preamble (lower typ)) && negb (starts_with s_string (lower typ)) = true ->
  typ_clean (lower typ).
Proof.
  intros H X. split; [|split; [apply lower_idem | exact X]].
  unfold typ_ok in *. apply andb_true_iff in H as [Hn H]. apply andb_true_iff. split; [destruct typ; [discriminate | reflexivity]|].
  rewrite forallb_forall in *. intros x Hx. apply in_map_iff in Hx as (c & <- & Hc). specialize (H c Hc).
  apply andb_true_iff in H as [H1 H2]. rewrite isspace_lower, H2, (lower_ch_word c H1). reflexivity.
Qed.

Lemma ends_bs_rev s : forall pb, ends_bs pb s = match rev s with c :: _ => (c =? c_bs)%N | [] => pb end.
Proof.
  induction s as [|c r IH]; intros pb; [reflexivity|]. cbn [ends_bs rev]. rewrite IH.
  destruct (rev r); reflexivity.
Qed.
Lemma ends_in_bs_eq s : ends_in_bs s = ends_bs false s.
Proof. unfold ends_in_bs. rewrite rv_rev, ends_bs_rev. reflexivity. Qed.

Definition k7_c (c : bcontent) : bool :=
  match c with
  | KEntry _ k fs => ends_in_bs k || existsb (fun kv => value_ends_in_bs (snd kv)) fs
  | KString _ v => value_ends_in_bs v
  | KExpl c => ends_in_bs c
  | _ => false
  end.
Lemma k7_block_c b : k7_block b = k7_c (content1 b).
Proof.
  destruct b; try reflexivity. cbn [k7_block content1 k7_c]. f_equal.
  induction fields as [|f r IH]; [reflexivity|]. cbn [existsb map snd]. rewrite IH. reflexivity.
Qed.
Lemma known_K7_c l : known_K7 l = existsb k7_c (content l).
Proof. unfold known_K7. induction l as [|b r IH]; [reflexivity|]. cbn [existsb content map]. rewrite k7_block_c, IH. reflexivity. Qed.

(* closes a goal that is the hypothesis N up to the bracketing of ++ *)
Ltac assoc_of N := revert N; norm_app; exact (fun x => x).

Lemma wf_items_in l : forall prev it g, wf_items prev l = true -> In (it, g) l ->
  wf_item it = true /\ exists R, noat (render_body it ++ g) R = true.
Proof.
  induction l as [|[it0 g0] r IH]; intros prev it g W I; [contradiction|]. cbn [wf_items] in W.
  apply andb_true_iff in W as [W Wr]. apply andb_true_iff in W as [W Wn]. apply andb_true_iff in W as [W _].
  apply andb_true_iff in W as [Wi _]. destruct I as [I|I].
  - inversion I; subst. split; [exact Wi | eexists; exact Wn].
  - exact (IH _ _ _ Wr I).
Qed.

Lemma exp_items_in l : forall ln b, In b (exp_items ln l) -> exists it g ln', In (it, g) l /\ b = block_of ln' it.
Proof.
  induction l as [|[it0 g0] r IH]; intros ln b I; [contradiction|]. cbn [exp_items] in I. destruct I as [I|I].
  - exists it0, g0, ln. split; [left; reflexivity | symmetry; exact I].
  - destruct (IH _ _ I) as (it & g & ln' & I' & E). exists it, g, ln'. split; [right; exact I' | exact E].
Qed.

(* the source text of a well-formed value of the grammar, as the first parse meets it in a field or in the strings index;
   what RemoveEnclosing leaves of it ([sval]) has no '@' that starts a block *)
Definition good_value (v : str) : Prop := exists gv, v = render_value gv /\ wf_value gv = true /\ nat_ok (sval gv).
Definition sd_ok (bs : list block) : Prop := forall k v, sd_lookup bs k = Some v -> good_value v.

Lemma string_item_good kw hws w1 name w2 w3 gv w4 g R :
  wf_item (IString kw hws w1 name w2 w3 gv w4) = true ->
  noat (render_body (IString kw hws w1 name w2 w3 gv w4) ++ g) R = true ->
  name_ok name = true /\ nat_ok name /\ wf_value gv = true /\ nat_ok (sval gv).
Proof.
  intros W N. cbn [wf_item] in W. repeat (apply andb_true_iff in W as [W ?]).
  cbn [render_body] in N.
  destruct (nat_ok_name_value (kw ++ hws ++ c_lb :: w1) name (w2 ++ c_eq :: w3) gv (w4 ++ [c_rb] ++ g) R) as [Nn Nv]; [assoc_of N|].
  repeat split; assumption.
Qed.

Lemma sd_ok_expected d : wf_doc d -> sd_ok (expected d).
Proof.
  intros W k v H. unfold wf_doc, wf_doc_b in W. apply andb_true_iff in W as [_ W].
  unfold sd_lookup in H. destruct (first_string k (expected d)) as [b|] eqn:E; [|discriminate].
  cbn [option_map] in H. inversion H; subst v. destruct (first_string_In _ _ _ E) as [I S].
  destruct (exp_items_in _ _ _ I) as (it & g & ln' & I' & ->).
  destruct (wf_items_in _ _ _ _ W I') as (Wi & R & N).
  destruct it; try discriminate. cbn [block_of string_value str_of].
  destruct (string_item_good _ _ _ _ _ _ _ _ _ _ Wi N) as (_ & _ & Wv & Nv). exists v. repeat split; assumption.
Qed.

Lemma good_clean v : good_value v -> value_ends_in_bs (stripv v) = false -> exists b, wf_cb b /\ stripv v = cval b.
Proof.
  intros (gv & -> & W & N) K. unfold stripv in *. rewrite (strip_enclosing_value gv W) in *. cbn [value_ends_in_bs] in K.
  rewrite ends_in_bs_eq in K. destruct (brace_ok_ast _ (sval_brace_ok gv W K)) as (b & R & Wb).
  exists b. unfold wf_cb, cval. rewrite R. split; [split|]; [exact Wb | exact N | reflexivity].
Qed.

Lemma res_str_good bs s : sd_ok bs -> good_value s -> good_value (res_str bs s).
Proof.
  intros S G. unfold res_str. destruct (enclosedb s); [exact G|].
  destruct (sd_lookup bs s) as [v|] eqn:E; [exact (S _ _ E) | exact G].
Qed.

Lemma field_good f X R : wf_field f = true -> noat (render_field f ++ X) R = true ->
  name_ok (g_name f) = true /\ nat_ok (g_name f) /\ good_value (render_value (g_val f)).
Proof.
  intros W N. unfold wf_field in W. repeat (apply andb_true_iff in W as [W ?]).
  unfold render_field, field_head in N.
  destruct (nat_ok_name_value (g_pre f) (g_name f) (g_w1 f ++ c_eq :: g_w2 f) (g_val f) (g_post f ++ X) R) as [Nn Nv]; [assoc_of N|].
  split; [assumption|]. split; [exact Nn|]. exists (g_val f). repeat split; assumption.
Qed.

Lemma parsed_field_exp bs ln f : parsed_field bs (exp_field ln f) = (g_name f, stripv (res_str bs (render_value (g_val f)))).
Proof. reflexivity. Qed.

Lemma field_clean bs ln f X R : sd_ok bs -> wf_field f = true -> noat (render_field f ++ X) R = true ->
  value_ends_in_bs (snd (parsed_field bs (exp_field ln f))) = false ->
  exists p, wf_cfield p /\ parsed_field bs (exp_field ln f) = (fst p, cval (snd p)) /\ fst p = g_name f.
Proof.
  intros S W N K. destruct (field_good f X R W N) as (Hn & Nn & G). rewrite parsed_field_exp in *. cbn [snd] in K.
  destruct (good_clean _ (res_str_good bs _ S G) K) as (b & Wb & E).
  exists (g_name f, b). split; [split; [exact Hn | split; [exact Nn | exact Wb]]|]. rewrite E. split; reflexivity.
Qed.

Definition k7_fields (l : list (str * value)) : bool := existsb (fun kv => value_ends_in_bs (snd kv)) l.

Lemma fields_clean bs fs : forall ln X R, sd_ok bs -> wf_fields fs = true -> noat (render_fields fs ++ X) R = true ->
  k7_fields (map (parsed_field bs) (exp_fields ln fs)) = false ->
  exists cfs, Forall wf_cfield cfs /\ map (parsed_field bs) (exp_fields ln fs) = map (fun p => (fst p, cval (snd p))) cfs
              /\ map fst cfs = field_names fs.
Proof.
  induction fs as [w|f|f r IH]; intros ln X R S W N K.
  - exists []. repeat split. constructor.
  - cbn [wf_fields render_fields exp_fields map k7_fields existsb] in *. rewrite orb_false_r in K.
    rewrite <- app_assoc in N. destruct (field_clean bs ln f _ R S W N K) as (p & Wp & E & En).
    exists [p]. split; [constructor; [exact Wp | constructor]|]. cbn [map field_names]. rewrite E, En. split; reflexivity.
  - cbn [wf_fields render_fields exp_fields map k7_fields existsb] in *. apply andb_true_iff in W as [Wf Wr].
    apply orb_false_iff in K as [K1 K2]. rewrite <- app_assoc in N.
    destruct (field_clean bs ln f _ R S Wf N K1) as (p & Wp & E & En).
    assert (N2 : noat (render_fields r ++ X) R = true).
    { rewrite noat_app in N. apply andb_true_iff in N as [_ N]. cbn [app noat] in N. apply andb_true_iff in N as [_ N]. exact N. }
    destruct (IH _ X R S Wr N2 K2) as (cfs & F & E2 & En2).
    exists (p :: cfs). split; [constructor; assumption|]. cbn [map field_names]. rewrite E, E2, En, En2. split; reflexivity.
Qed.

Lemma lstrip_idem s : lstrip (lstrip s) = lstrip s.
Proof. induction s as [|c r IH]; [reflexivity|]. cbn [lstrip]. destruct (isspace c) eqn:E; [exact IH|]. cbn [lstrip]. rewrite E. reflexivity. Qed.
Lemma rv_rv {A} (l : list A) : rv (rv l) = l.
Proof. rewrite !rv_rev. apply rev_involutive. Qed.
Lemma rstrip_idem s : rstrip (rstrip s) = rstrip s.
Proof. unfold rstrip. rewrite rv_rv, lstrip_idem. reflexivity. Qed.
Lemma lstrip_rstrip_head c t : isspace c = false -> lstrip (rstrip (c :: t)) = rstrip (c :: t).
Proof.
  intros Hc. destruct (SplitTiling.rstrip_split (c :: t)) as (trail & E & Ht).
  destruct (rstrip (c :: t)) as [|c' u] eqn:Er.
  - reflexivity.
  - cbn [app] in E. inversion E; subst c'. cbn [lstrip]. rewrite Hc. reflexivity.
Qed.
Lemma lstrip_ns s : match lstrip s with c :: _ => isspace c = false | [] => True end.
Proof. induction s as [|c r IH]; [exact I|]. cbn [lstrip]. destruct (isspace c) eqn:E; [exact IH | exact E]. Qed.
Lemma strip_idem s : strip (strip s) = strip s.
Proof.
  unfold strip. pose proof (lstrip_ns s) as Hc. destruct (lstrip s) as [|c t]; [reflexivity|].
  rewrite (lstrip_rstrip_head c t Hc). apply rstrip_idem.
Qed.

Lemma noat_suffix A B R : noat (A ++ B) R = true -> noat B R = true.
Proof. rewrite noat_app. intros H. apply andb_true_iff in H as [_ H]. exact H. Qed.
Lemma entry_clean bs ln typ hws w1 key w2 t g R : sd_ok bs ->
  wf_item (IEntry typ hws w1 key w2 t) = true -> nodup_item (IEntry typ hws w1 key w2 t) = true ->
  noat (render_body (IEntry typ hws w1 key w2 t) ++ g) R = true ->
  k7_c (parsed_content1 bs (block_of ln (IEntry typ hws w1 key w2 t))) = false ->
  exists c, wf_citem c /\ parsed_content1 bs (block_of ln (IEntry typ hws w1 key w2 t)) = cc1 c /\ cfree c = false.
Proof.
  intros S W D N K. cbn [wf_item] in W.
  (* of the entry's well-formedness: its tail, its key, the three excluded types, its type *)
  apply andb_true_iff in W as [W Wt]. do 2 (apply andb_true_iff in W as [W _]). apply andb_true_iff in W as [W Hk].
  apply andb_true_iff in W as [W _]. apply andb_true_iff in W as [W X3]. apply andb_true_iff in W as [W X2].
  apply andb_true_iff in W as [W X1]. apply andb_true_iff in W as [Ht _].
  cbn [block_of parsed_content1 k7_c] in *. apply orb_false_iff in K as [Kk Kf]. rewrite ends_in_bs_eq in Kk.
  cbn [render_body] in N. unfold entry_head in N.
  assert (Nk : nat_ok key).
  { apply (nat_ok_mid (typ ++ hws ++ c_lb :: w1) key (w2 ++ render_etail t ++ g) R). assoc_of N. }
  assert (Tc : typ_clean (lower typ)).
  { apply typ_clean_lower; [exact Ht|]. rewrite X1, X2, X3. reflexivity. }
  assert (F : exists cfs, Forall wf_cfield cfs /\
     map (parsed_field bs) match t with ENoComma => [] | EComma fs => exp_fields (ln + C03.count_nl (entry_head typ hws w1 key w2))%Z fs end
     = map (fun p => (fst p, cval (snd p))) cfs /\ fresh_all [] (map fst cfs) = true).
  { destruct t as [|fs].
    - exists []. repeat split. constructor.
    - cbn [wf_etail nodup_item] in *.
      assert (N2 : noat (render_fields fs ++ g) R = true).
      { cbn [render_etail] in N. apply (noat_suffix (typ ++ hws ++ c_lb :: w1 ++ key ++ w2 ++ [c_comma])).
        assoc_of N. }
      destruct (fields_clean bs fs _ g R S Wt N2 Kf) as (cfs & Fc & E & En). exists cfs. rewrite En. repeat split; assumption. }
  destruct F as (cfs & Fc & E & Fr). exists (CEntry (lower typ) key cfs). split; [|split; [cbn [cc1]; rewrite E; reflexivity | reflexivity]].
  cbn [wf_citem]. repeat split; try assumption; apply Tc.
Qed.

Lemma item_clean bs ln it g R : sd_ok bs -> wf_item it = true -> nodup_item it = true ->
  noat (render_body it ++ g) R = true -> k7_c (parsed_content1 bs (block_of ln it)) = false ->
  exists c, wf_citem c /\ parsed_content1 bs (block_of ln it) = cc1 c /\ cfree c = is_free it.
Proof.
  intros S W D N K. destruct it as [typ hws w1 key w2 t|kw hws w1 name w2 w3 gv w4|kw hws b|kw hws b|t].
  - apply (entry_clean bs ln typ hws w1 key w2 t g R); assumption.
  - destruct (string_item_good _ _ _ _ _ _ _ _ _ _ W N) as (Hn & Nn & Wv & Nv).
    cbn [block_of parsed_content1 k7_c str_of] in *.
    assert (G : good_value (render_value gv)) by (exists gv; repeat split; assumption).
    destruct (good_clean _ G K) as (b & Wb & E). exists (CString name b). cbn [wf_citem cc1 cfree is_free]. rewrite E.
    repeat split; try assumption; apply Wb.
  - cbn [wf_item] in W. apply andb_true_iff in W as [_ Wb]. exists (CPre b). cbn [render_body] in N.
    split; [|split; reflexivity]. split; [exact Wb|].
    apply (nat_ok_mid (kw ++ hws ++ [c_lb]) (render_braced b) ([c_rb] ++ g) R). assoc_of N.
  - cbn [wf_item] in W. apply andb_true_iff in W as [_ Wb0]. cbn [render_body] in N.
    cbn [block_of parsed_content1 content1 k7_c] in *. rewrite ends_in_bs_eq in K.
    destruct (strip_braced b Wb0 K) as (b' & Rb & Wb). exists (CExpl b'). cbn [wf_citem cc1 cfree is_free]. rewrite Rb.
    split; [|split; reflexivity]. split; [split; [exact Wb|] | apply strip_idem]. rewrite Rb.
    apply (nat_ok_strip (kw ++ hws ++ [c_lb]) (render_braced b) ([c_rb] ++ g) R). assoc_of N.
  - cbn [wf_item render_body] in *. exists (CFree t). split; [|split; reflexivity]. split; [exact W|].
    apply (nat_ok_mid [] t g R). exact N.
Qed.

Lemma items_clean bs l : forall prev ln, sd_ok bs -> wf_items prev l = true ->
  forallb (fun p => nodup_item (fst p)) l = true ->
  existsb k7_c (map (parsed_content1 bs) (exp_items ln l)) = false ->
  exists cs, wf_cs prev cs /\ map (parsed_content1 bs) (exp_items ln l) = ccontent cs.
Proof.
  induction l as [|[it g] r IH]; intros prev ln S W D K; [exists []; split; [exact I | reflexivity]|].
  cbn [wf_items] in W. apply andb_true_iff in W as [W Wr]. apply andb_true_iff in W as [W Wn].
  apply andb_true_iff in W as [W Wf]. apply andb_true_iff in W as [Wi Wg].
  cbn [forallb fst] in D. apply andb_true_iff in D as [Di Dr].
  cbn [exp_items map existsb] in K. apply orb_false_iff in K as [Ki Kr].
  destruct (item_clean bs ln it g _ S Wi Di Wn Ki) as (c & Wc & Ec & Fc).
  destruct (IH _ _ S Wr Dr Kr) as (cs & Wcs & Ecs).
  exists (c :: cs). cbn [wf_cs exp_items map ccontent]. rewrite Fc. split.
  - split; [exact Wc|]. split; [apply negb_true_iff in Wf; exact Wf | exact Wcs].
  - rewrite Ec. f_equal. exact Ecs.
Qed.

Theorem first_parse_clean d : wf_doc d -> nodup_doc d -> existsb k7_c (pcontent d) = false ->
  exists cs, wf_cs false cs /\ pcontent d = ccontent cs.
Proof.
  intros W (Nf & _) K. pose proof (sd_ok_expected d W) as S. unfold wf_doc, wf_doc_b in W. apply andb_true_iff in W as [_ W].
  exact (items_clean (expected d) (d_items d) false _ S W Nf K).
Qed.

Lemma ccontent_no_other cs : forallb (fun c => negb (other_c c)) (ccontent cs) = true.
Proof. induction cs as [|c r IH]; [reflexivity|]. cbn [ccontent map forallb]. fold (ccontent r). rewrite IH. destruct c; reflexivity. Qed.

Lemma clean_no_failed cs l1 : content l1 = ccontent cs -> no_failed l1 = true.
Proof. intros E. rewrite no_failed_content, E. apply ccontent_no_other. Qed.

(* second half: a library with clean content is written as a well-formed duplicate-free document ... *)
Lemma clean_written f cs l1 : wf_fmt f -> wf_cs false cs -> content l1 = ccontent cs -> wf_blocks l1 -> md_ok l1 = true ->
  write_default f l1 = PVal (render (ast_fmt f cs)) /\ wf_doc (ast_fmt f cs) /\ nodup_doc (ast_fmt f cs).
Proof.
  intros Hf Wcs E Wb Hm. split; [|split].
  - rewrite (write_default_c f l1 Wb (clean_no_failed cs l1 E) Hm), E. apply cwrite_render.
  - apply wf_ast_fmt; assumption.
  - destruct Wb as [We Ws]. rewrite ekeys_content, E in We. rewrite skeys_content, E in Ws. apply nodup_ast_fmt; assumption.
Qed.

(* ... and read back unchanged; the second write depends on the library only through its content *)
Theorem clean_roundtrip f cs l1 t1 l2 : wf_fmt f -> wf_cs false cs -> content l1 = ccontent cs ->
  wf_blocks l1 -> md_ok l1 = true -> write_default f l1 = PVal t1 -> parse_default t1 = PVal l2 ->
  t1 = render (ast_fmt f cs) /\ wf_doc (ast_fmt f cs) /\ content l2 = content l1 /\ write_default f l2 = PVal t1.
Proof.
  intros Hf Wcs E Wb Hm Hw Hp. destruct (clean_written f cs l1 Hf Wcs E Wb Hm) as (Hw' & Wd & Nd).
  rewrite Hw in Hw'. injection Hw' as ->.
  assert (C2 : content l2 = content l1)
    by (rewrite (parse_render_content _ _ Wd Nd Hp), (pcontent_ast f cs Wcs); symmetry; exact E).
  destruct (parse_default_props _ _ Hp) as [_ Hm2].
  split; [reflexivity|]. split; [exact Wd|]. split; [exact C2|].
  rewrite <- (write_default_content f l1 l2 (eq_sym C2) Wb (clean_no_failed cs l1 E) Hm Hm2). exact Hw.
Qed.

(* first half: outside K7 the first parse of a well-formed document is such a library *)
Lemma parse_clean d l1 : wf_doc d -> nodup_doc d -> parse_default (render d) = PVal l1 -> known_K7 l1 = false ->
  exists cs, wf_cs false cs /\ content l1 = ccontent cs /\ wf_blocks l1 /\ md_ok l1 = true.
Proof.
  intros Wd Nd P1 K. pose proof (parse_render_content d l1 Wd Nd P1) as C1.
  rewrite known_K7_c, C1 in K. destruct (first_parse_clean d Wd Nd K) as (cs & Wcs & Ecs).
  exists cs. split; [exact Wcs|]. split; [congruence|]. exact (parse_default_props _ _ P1).
Qed.

Theorem roundtrip_content : forall d f l1 t1 l2, wf_doc d -> nodup_doc d -> wf_fmt f ->
  parse_default (render d) = PVal l1 -> known_K7 l1 = false ->
  write_default f l1 = PVal t1 -> parse_default t1 = PVal l2 -> content l2 = content l1.
Proof.
  intros d f l1 t1 l2 Wd Nd Hf P1 K Hw P2. destruct (parse_clean d l1 Wd Nd P1 K) as (cs & Wcs & E & Wb & Hm).
  apply (clean_roundtrip f cs l1 t1 l2 Hf Wcs E Wb Hm Hw P2).
Qed.
Print Assumptions roundtrip_content.

(* the written text is a fixpoint: writing the re-parsed library reproduces it byte for byte *)
Theorem roundtrip_fixpoint_doc : forall d f l1 t1 l2, wf_doc d -> nodup_doc d -> wf_fmt f ->
  parse_default (render d) = PVal l1 -> known_K7 l1 = false ->
  write_default f l1 = PVal t1 -> parse_default t1 = PVal l2 -> write_default f l2 = PVal t1.
Proof.
  intros d f l1 t1 l2 Wd Nd Hf P1 K Hw P2. destruct (parse_clean d l1 Wd Nd P1 K) as (cs & Wcs & E & Wb & Hm).
  apply (clean_roundtrip f cs l1 t1 l2 Hf Wcs E Wb Hm Hw P2).
Qed.
Print Assumptions roundtrip_fixpoint_doc.

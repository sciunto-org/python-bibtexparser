(* K14 needs a brace as well: on ASCII words without a brace - escapes at level 0 included - the word case of Spec/C13 (the
   library's) IS the one of BibTeX's von_token_found. *)
From Coq Require Import List NArith ZArith Bool String Lia.
From BP Require Import Base.Chars Spec.BibtexCase Proofs.BibtexCaseProofs Proofs.BibtexCaseAgree.
Import ListNotations.
Local Open Scope N_scope.

Definition no_brace (w : str) : bool := forallb (fun c => negb (ceq c c_lb) && negb (ceq c c_rb)) w.

Lemma bs_not_letter : upA c_bs || loA c_bs = false.
Proof. reflexivity. Qed.

Lemma no_brace_top w : no_brace w = true -> bs_top 0 w = true.
Proof.
  induction w as [|c r IH]; intros H; [reflexivity|]. cbn [no_brace forallb] in H. apply andb_prop in H. destruct H as [Hc Hr].
  apply andb_prop in Hc. destruct Hc as [Ho Hcl]. apply negb_true_iff in Ho, Hcl.
  cbn [bs_top]. rewrite Ho, Hcl, (IH Hr). destruct (ceq c c_bs); [|reflexivity].
  destruct r as [|e r']; [reflexivity|]. cbn [no_brace forallb] in Hr. apply andb_prop in Hr. destruct Hr as [He _].
  rewrite He. reflexivity.
Qed.

(* on ASCII words without a brace - escapes included - the library's word case IS BibTeX's: K14 needs a brace as well *)
Theorem agree_no_brace w : forallb ascii_canon w = true -> no_brace w = true -> lib_von w = von_token_found w.
Proof. intros Hc Hb. apply agree_top_escapes; [exact Hc | apply no_brace_top; exact Hb]. Qed.

(* The word case of Spec/C13 (the library's) IS the one of BibTeX's von_token_found on words of ASCII characters in which no
   backslash stands inside braces and none at brace level 0 stands before a brace (agree_top_escapes): both readings then
   see the same groups, none of them a special character, and the same escaped characters.  Known finding K14 needs a
   backslash and a brace.  Properties/C13.v states its two instances: no backslash at all (agree_no_backslash, here) and
   no brace at all (BibtexCaseAgree2.agree_no_brace). *)
From Coq Require Import List NArith ZArith Bool String Lia.
From BP Require Import Base.Chars Gen.Constants Model.Names Spec.C13 Spec.BibtexCase Proofs.Common
  Proofs.BibtexCaseProofs.
Import ListNotations.
Local Open Scope N_scope.

(* an ASCII character with the flags CPython gives it (what the harness sends for every ASCII character; checked per run) *)
Definition ascii_canon (c : ch) : bool := (code c <? 128) && (c =? asc (code c)).
Definition no_bs (w : str) : bool := forallb (fun c => negb (ceq c c_bs)) w.

Definition ascii_facts (n : N) : bool :=
  let c := asc n in
  (code c =? n)
  && Bool.eqb (isalpha c) (upA c || loA c) && Bool.eqb (isupper c) (upA c)
  && Bool.eqb (ceq c c_lb) (n =? 123) && Bool.eqb (ceq c c_rb) (n =? 125).
Lemma ascii_sweep : forallb ascii_facts (map N.of_nat (seq 0 128)) = true.
Proof. vm_compute. reflexivity. Qed.

Lemma canon_facts c : ascii_canon c = true ->
  isalpha c = (upA c || loA c) /\ isupper c = upA c.
Proof.
  unfold ascii_canon. intro H. apply andb_prop in H. destruct H as [Hl He].
  apply N.ltb_lt in Hl. apply N.eqb_eq in He.
  assert (Hin : In (code c) (map N.of_nat (seq 0 128))).
  { apply in_map_iff. exists (N.to_nat (code c)). split; [apply N2Nat.id|]. apply in_seq. lia. }
  pose proof (proj1 (forallb_forall _ _) ascii_sweep _ Hin) as F. unfold ascii_facts in F. rewrite <- He in F.
  repeat (apply andb_prop in F; destruct F as [F ?]).
  split; apply eqb_prop; assumption.
Qed.

(* the separators of the name parser (Gen/Constants.v, read from the running module) are not ASCII letters *)
Lemma ws_not_letters : forallb (fun c => negb (upA c || loA c)) names_ws_parse = true.
Proof. vm_compute. reflexivity. Qed.
Lemma ws_not_letter e : ws_parse e = true -> upA e || loA e = false.
Proof.
  unfold ws_parse, in_set. intro H. apply existsb_exists in H. destruct H as (x & Hin & Hx).
  apply N.eqb_eq in Hx. subst x. pose proof (proj1 (forallb_forall _ _) ws_not_letters _ Hin) as F.
  apply negb_true_iff in F. exact F.
Qed.

(* no backslash at brace level d > 0, and a backslash at level 0 does not stand before a brace *)
Fixpoint bs_top (d : N) (w : str) : bool :=
  match w with
  | [] => true
  | c :: r =>
      if ceq c c_lb then bs_top (d + 1) r
      else if ceq c c_rb then bs_top (N.pred d) r
      else if ceq c c_bs then
        (d =? 0) && match r with e :: _ => negb (ceq e c_lb) && negb (ceq e c_rb) | [] => true end && bs_top d r
      else bs_top d r
  end.

Lemma no_bs_top w : no_bs w = true -> forall d, bs_top d w = true.
Proof.
  induction w as [|c r IH]; intros H d; [reflexivity|]. cbn [no_bs forallb] in H. apply andb_prop in H. destruct H as [Hc Hr].
  apply negb_true_iff in Hc. cbn [bs_top]. rewrite Hc. destruct (ceq c c_lb); [|destruct (ceq c c_rb)]; apply IH; exact Hr.
Qed.

Lemma brace_not_letter c : ceq c c_lb = true \/ ceq c c_rb = true -> upA c = false /\ loA c = false.
Proof. intros [E|E]; apply N.eqb_eq in E; subst c; split; reflexivity. Qed.

(* what the two scans have in common: at level 0, or skipping a group *)
Definition scan_rel (m : wmode) (d : N) (t : tmode) : Prop :=
  (m = MTop /\ d = 0 /\ t = TTop) \/ ((m = MStart \/ m = MGroup) /\ 1 <= d /\ t = TGroup d).

Lemma scan_rel_group m d : 1 <= d -> m = MStart \/ m = MGroup -> scan_rel m d (TGroup d).
Proof. intros Hd Hm. right. auto. Qed.

Lemma agree_go w : forallb ascii_canon w = true -> forall m d t, scan_rel m d t -> bs_top d w = true ->
  (match word_case_go (atoms w) m d with Lower => true | _ => false end) = von_go w t.
Proof.
  induction w as [w IH] using list_len_ind. intros Hc m d t R Hb. destruct w as [|c r].
  { destruct R as [(-> & -> & ->)|(_ & _ & ->)]; reflexivity. }
  cbn [forallb] in Hc. apply andb_prop in Hc. destruct Hc as [Hc Hcr].
  destruct (canon_facts c Hc) as [Fa Fu].
  assert (IHr : forall m' d' t', scan_rel m' d' t' -> bs_top d' r = true ->
            (match word_case_go (atoms r) m' d' with Lower => true | _ => false end) = von_go r t')
    by (intros; apply IH; [cbn [List.length]; lia | exact Hcr | assumption..]).
  cbn [bs_top] in Hb. cbn [atoms].
  destruct (ceq c c_bs) eqn:Ebs.
  - apply N.eqb_eq in Ebs. subst c. change (ceq c_bs c_lb) with false in Hb. change (ceq c_bs c_rb) with false in Hb. cbv iota in Hb.
    apply andb_prop in Hb. destruct Hb as [Hb Hbr]. apply andb_prop in Hb. destruct Hb as [Hd He].
    apply N.eqb_eq in Hd. subst d.
    destruct R as [(-> & _ & ->)|(_ & Hd & _)]; [|lia].
    destruct r as [|e r']; [reflexivity|].
    apply andb_prop in He. destruct He as [Hoe Hce]. apply negb_true_iff in Hoe, Hce.
    cbn [forallb] in Hcr. apply andb_prop in Hcr. destruct Hcr as [He Hcr'].
    destruct (canon_facts e He) as [Fae Fue].
    assert (Hbr' : bs_top 0 r' = true).
    { cbn [bs_top] in Hbr. rewrite Hoe, Hce in Hbr. destruct (ceq e c_bs); [|exact Hbr].
      apply andb_prop in Hbr. apply Hbr. }
    assert (IHr' : (match word_case_go (atoms r') MTop 0 with Lower => true | _ => false end) = von_go r' TTop).
    { apply IH; [cbn [List.length]; lia | exact Hcr' | left; auto | exact Hbr']. }
    destruct (ws_parse e) eqn:Ews.
    + pose proof (ws_not_letter e Ews) as Nl. apply orb_false_elim in Nl. destruct Nl as [Nu Nlo].
      cbn [word_case_go is_open is_close von_go]. rewrite Hoe, Hce.
      change (isalpha c_bs) with false. change (upA c_bs) with false. change (loA c_bs) with false.
      change (ceq c_bs c_lb) with false. change (ceq c_bs c_rb) with false.
      rewrite Fae, Nu, Nlo. cbn [orb]. exact IHr'.
    + cbn [word_case_go is_open is_close von_go].
      change (upA c_bs) with false. change (loA c_bs) with false. change (ceq c_bs c_lb) with false.
      rewrite Hoe, Fae. unfold letter_case. rewrite Fue.
      destruct (upA e) eqn:U; [reflexivity|]. destruct (loA e) eqn:Lo; [reflexivity|]. cbn [orb]. exact IHr'.
  - cbn [word_case_go is_open is_close von_go].
    destruct R as [(-> & -> & ->)|(Hm & Hd & ->)].
    + destruct (ceq c c_lb) eqn:Eo.
      { destruct (brace_not_letter c (or_introl Eo)) as [U Lo]. rewrite U, Lo.
        destruct r as [|b r']; [reflexivity|].
        (* the group is not a special character: its first character is not a backslash *)
        assert (Hb' : ceq b c_bs = false).
        { cbn [bs_top] in Hb. destruct (ceq b c_bs) eqn:E; [|reflexivity]. apply N.eqb_eq in E. subst b.
          change (ceq c_bs c_lb) with false in Hb. change (ceq c_bs c_rb) with false in Hb. cbv iota in Hb.
          apply andb_prop in Hb. destruct Hb as [Hb _]. apply andb_prop in Hb. destruct Hb as [Hb _]. discriminate. }
        rewrite Hb'. cbn [andb]. apply IHr; [apply scan_rel_group; [lia | left; reflexivity] | exact Hb]. }
      destruct (ceq c c_rb) eqn:Ec.
      { destruct (brace_not_letter c (or_intror Ec)) as [U Lo]. rewrite U, Lo. apply IHr; [left; auto | exact Hb]. }
      rewrite Fa. unfold letter_case. rewrite Fu.
      destruct (upA c) eqn:U; [reflexivity|]. destruct (loA c) eqn:Lo; [reflexivity|]. cbn [orb].
      apply IHr; [left; auto | exact Hb].
    + (* inside a group: nothing counts *)
      destruct (ceq c c_lb) eqn:Eo.
      { assert (ceq c c_rb = false) as Ec by (apply N.eqb_eq in Eo; subst c; reflexivity). rewrite Ec.
        apply IHr; [apply scan_rel_group; [lia | left; reflexivity] | exact Hb]. }
      destruct (ceq c c_rb) eqn:Ec.
      { unfold leave. destruct (d =? 1) eqn:E1.
        - apply N.eqb_eq in E1. subst d. cbn. apply IHr; [left; auto | exact Hb].
        - apply N.eqb_neq in E1. replace (N.pred d =? 0) with false by (symmetry; apply N.eqb_neq; lia).
          replace (d - 1) with (N.pred d) by lia.
          apply IHr; [apply scan_rel_group; [lia | right; reflexivity] | exact Hb]. }
      destruct Hm as [-> | ->]; apply IHr; try exact Hb; apply scan_rel_group; auto.
Qed.

Theorem agree_top_escapes w : forallb ascii_canon w = true -> bs_top 0 w = true -> lib_von w = von_token_found w.
Proof. intros Hc Hb. unfold lib_von, von_token_found, word_case. apply (agree_go w Hc); [left; auto | exact Hb]. Qed.

(* on words of ASCII characters without a backslash the library's word case IS BibTeX's: K14 needs a backslash *)
Theorem agree_no_backslash w : forallb ascii_canon w = true -> no_bs w = true -> lib_von w = von_token_found w.
Proof. intros Hc Hb. apply agree_top_escapes; [exact Hc | apply no_bs_top; exact Hb]. Qed.

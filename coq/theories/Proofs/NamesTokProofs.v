(* C13, tokeniser layer: the single pass of parse_single_name_into_parts (strict mode) computes exactly the
   compositional Spec.C13 (atoms / sections / words / word_case), and fails exactly on the invalid names.
   Three steps: the iterator with its escape mechanism is a fold over atoms; that fold is simulated by a one-pass
   reference [gstep] that carries atoms instead of registers; the reference is the nested cuts and word_case of the spec. *)
From Coq Require Import List NArith ZArith Bool Lia PeanoNat.
From BP Require Import Base.Chars Gen.Constants Model.Names Spec.C13 Proofs.Common Proofs.NamesPartProofs
  Proofs.NamesParseProofs.
Import ListNotations.

Lemma ws_parse_facts e : ws_parse e = true ->
  ceq e c_lb = false /\ ceq e c_rb = false /\ ceq e c_bs = false /\ ceq e c_comma = false /\ isalpha e = false.
Proof.
  unfold ws_parse, in_set, names_ws_parse. cbn [existsb]. rewrite orb_false_r.
  intros H. repeat (apply orb_true_iff in H; destruct H as [H|H]); apply N.eqb_eq in H; subst e; vm_compute; auto.
Qed.

Lemma bs_facts : ceq c_bs c_lb = false /\ ceq c_bs c_rb = false /\ ceq c_bs c_comma = false /\ ws_parse c_bs = false
                 /\ isalpha c_bs = false.
Proof. vm_compute. auto. Qed.

Lemma upd_case_nonalpha k c : isalpha c = false -> upd_case k c = k.
Proof. unfold upd_case. intros ->. rewrite andb_false_r. reflexivity. Qed.

Definition parse_pair (st : pst) (c : ch) : pres pst :=
  if p_bracestart st then
    POk (mkpst (p_secs st) (p_cases st) (c :: c_bs :: p_word st) (p_case st) (p_level st) false (isalpha c) true false)
  else
    POk (mkpst (p_secs st) (p_cases st) (c :: c_bs :: p_word st) (upd_case (p_case st) c) (p_level st) false
               (p_controlseq st) (p_specialchar st) false).

Definition astep (strict : bool) (acc : pres pst) (a : atom) : pres pst :=
  match acc with
  | PErr e => PErr e
  | POk st => match a with AChar c => parse_norm strict st c | APair c => parse_pair st c end
  end.

Lemma afold_err strict l e : fold_left (astep strict) l (PErr e) = PErr e.
Proof. apply fold_left_fixed. reflexivity. Qed.

Lemma pair_esc_false st c st' : parse_pair st c = POk st' -> p_esc st' = false.
Proof. unfold parse_pair. destruct (p_bracestart st); intros H; inversion H; reflexivity. Qed.

Lemma set_esc_id st : p_esc st = false -> set_esc st false = st.
Proof. destruct st. simpl. intros ->. reflexivity. Qed.
Lemma set_esc_twice st b : set_esc (set_esc st b) false = set_esc st false.
Proof. reflexivity. Qed.

(* a backslash before whitespace: appending it silently and then handling the whitespace is the same as handling
   the backslash as an ordinary character first *)
Lemma bs_then_ws strict st e : ws_parse e = true ->
  parse_norm strict (mkpst (p_secs st) (p_cases st) (c_bs :: p_word st) (p_case st) (p_level st) (p_bracestart st)
                           (p_controlseq st) (p_specialchar st) false) e
  = match parse_norm strict st c_bs with POk st1 => parse_norm strict st1 e | PErr er => PErr er end.
Proof.
  intros Hws. destruct (ws_parse_facts e Hws) as (E1 & E2 & E3 & E4 & E5).
  destruct bs_facts as (B1 & B2 & B3 & B4 & B5).
  destruct (p_level st =? 0)%N eqn:El.
  - rewrite (parse_norm_ord strict st c_bs B1 B2 B3 B4 El). cbv iota. rewrite !parse_norm_ws by (assumption || exact El || reflexivity).
    unfold close_word. cbn [p_word p_secs p_cases p_case]. rewrite upd_case_nonalpha by exact B5. reflexivity.
  - rewrite (parse_norm_inner strict st c_bs B1 B2 El). cbv iota. rewrite !parse_norm_inner by (assumption || exact El).
    cbn [p_level p_controlseq p_specialchar p_case p_word p_secs p_cases].
    rewrite B5, E5, !upd_case_nonalpha by assumption. destruct (p_controlseq st), (p_specialchar st); reflexivity.
Qed.

Lemma both_err strict r l e :
  finish_esc strict (fold_left (parse_step strict) r (PErr e)) = fold_left (astep strict) l (PErr e).
Proof. rewrite fold_err, afold_err. reflexivity. Qed.

Lemma chars_atoms strict s : forall st, p_esc st = false ->
  finish_esc strict (fold_left (parse_step strict) s (POk st)) = fold_left (astep strict) (atoms s) (POk st).
Proof.
  induction s as [s IH] using list_len_ind. intros st He.
  destruct s as [|c r]; [simpl; rewrite He; reflexivity|].
  cbn [fold_left atoms]. unfold parse_step at 2. rewrite He.
  destruct (ceq c c_bs) eqn:Ec.
  - apply N.eqb_eq in Ec. subst c.
    destruct r as [|e r'].
    + cbn [fold_left finish_esc p_esc set_esc]. cbn [astep]. rewrite set_esc_twice, set_esc_id by exact He. reflexivity.
    + cbn [fold_left]. unfold parse_step at 2. cbn [p_esc set_esc]. rewrite set_esc_twice, set_esc_id by exact He.
      unfold parse_esc. destruct (ws_parse e) eqn:Ews.
      * rewrite bs_then_ws by exact Ews. cbn [fold_left astep].
        destruct (parse_norm strict st c_bs) as [st1|er] eqn:E1; cbn [astep]; [|apply both_err].
        destruct (parse_norm strict st1 e) as [st2|er] eqn:E2; [|apply both_err].
        apply IH; [simpl; lia | eapply norm_esc_false; exact E2].
      * cbn [fold_left astep]. fold (parse_pair st e).
        destruct (parse_pair st e) as [st2|er] eqn:E2.
        -- apply IH; [simpl; lia | eapply pair_esc_false; exact E2].
        -- unfold parse_pair in E2. destruct (p_bracestart st); discriminate.
  - cbn [fold_left astep]. destruct (parse_norm strict st c) as [st1|er] eqn:E1; [|apply both_err].
    apply IH; [simpl; lia | eapply norm_esc_false; exact E1].
Qed.

(* the case register (Caseless: no letter has counted yet), the mode and the brace depth *)
Definition kst := (wcase * wmode * N)%type.
Definition kk (s : kst) : wcase := fst (fst s).
Definition km (s : kst) : wmode := snd (fst s).
Definition kd (s : kst) : N := snd s.
Definition k0 : kst := (Caseless, MTop, 0%N).

Definition kupd (k : wcase) (c : ch) : wcase :=
  match k with Caseless => if isalpha c then letter_case c else Caseless | _ => k end.

(* word_case_go as a left fold (it keeps running after the case is known; the case no longer changes) *)
Definition case_step (st : kst) (a : atom) : kst :=
  let k := kk st in let m := km st in let d := kd st in
  if is_open a then (k, MStart, (d + 1)%N)
  else if is_close a then (k, leave d, N.pred d)
  else match a, m with
       | APair c, MStart => (k, if isalpha c then MCtrl else MSpecial, d)
       | APair c, _ => (kupd k c, m, d)
       | AChar c, MTop => (kupd k c, MTop, d)
       | AChar c, MStart => (k, MGroup, d)
       | AChar c, MGroup => (k, MGroup, d)
       | AChar c, MCtrl => (k, if isalpha c then MCtrl else MSpecial, d)
       | AChar c, MSpecial => (kupd k c, MSpecial, d)
       end.
(* a character that counts settles the case, unless it is settled already *)
Lemma kupd_known k c (X : wcase) :
  match kupd k c with Caseless => X | _ => kupd k c end = match k with Caseless => if isalpha c then letter_case c else X | _ => k end.
Proof. destruct k; cbn [kupd]; try reflexivity. unfold letter_case. destruct (isalpha c); [destruct (isupper c)|]; reflexivity. Qed.

Lemma word_case_fold l : forall k m d,
  kk (fold_left case_step l (k, m, d)) = match k with Caseless => word_case_go l m d | _ => k end.
Proof.
  induction l as [|a l IH]; intros k m d.
  - destruct k; reflexivity.
  - cbn [fold_left word_case_go]. unfold case_step at 2. cbn [kk km kd fst snd].
    destruct (is_open a); [apply IH|]. destruct (is_close a); [apply IH|].
    destruct a as [c|c], m; rewrite IH; try reflexivity; apply kupd_known.
Qed.

Definition gword := (list atom * wcase)%type.
Record gst := mkgst { g_secs : list (list gword); g_word : list atom; g_k : kst }.
Inductive gres := GOk (g : gst) | GErr (e : nerr).
Definition g0 : gst := mkgst [[]] [] k0.

Definition gpush (g : gst) : list (list gword) :=
  match g_word g with [] => g_secs g | _ => push_last (rev (g_word g), kk (g_k g)) (g_secs g) end.
Definition gword_cons (g : gst) (a : atom) : gres := GOk (mkgst (g_secs g) (a :: g_word g) (case_step (g_k g) a)).

Definition gstep (g : gst) (a : atom) : gres :=
  if is_open a then gword_cons g a
  else if is_close a then (if (kd (g_k g) =? 0)%N then GErr NUnmatched else gword_cons g a)
  else match a with
       | APair _ => gword_cons g a
       | AChar c =>
           if negb (kd (g_k g) =? 0)%N then gword_cons g a
           else if ceq c c_comma then
             (if (length (gpush g) <? 3)%nat then GOk (mkgst ([] :: gpush g) [] k0) else GErr NTooMany)
           else if ws_parse c then GOk (mkgst (gpush g) [] k0)
           else gword_cons g a
       end.
Definition gfold (acc : gres) (a : atom) : gres := match acc with GOk g => gstep g a | GErr e => GErr e end.

(* text of a reversed atom list, reversed *)
Fixpoint rtext (l : list atom) : str :=
  match l with [] => [] | a :: r => rev (atom_text a) ++ rtext r end.
Lemma rtext_rev l : rev (rtext l) = text (rev l).
Proof.
  unfold text. induction l as [|a l IH]; [reflexivity|]. cbn [rtext]. rewrite rev_app_distr, rev_involutive, IH.
  cbn [rev]. rewrite map_app, concat_app. cbn. rewrite app_nil_r. reflexivity.
Qed.
Lemma rtext_nil l : rtext l = [] -> l = [].
Proof. destruct l as [|a l]; [reflexivity|]. destruct a; cbn; discriminate. Qed.

Definition zc (k : wcase) : Z := match k with Upper => 1%Z | Lower => 0%Z | Caseless => (-1)%Z end.
Lemma zc_kupd k c : zc (kupd k c) = upd_case (zc k) c.
Proof.
  unfold kupd, upd_case, letter_case. destruct k; cbn; try reflexivity.
  destruct (isalpha c); [destruct (isupper c)|]; reflexivity.
Qed.

(* the mode of the reference's case register against the parser's three flags *)
Definition mode_rel (s : kst) (st : pst) : Prop :=
  match km s with
  | MTop => kd s = 0%N /\ p_bracestart st = false
  | MStart => kd s <> 0%N /\ p_bracestart st = true /\ p_controlseq st = false /\ p_specialchar st = false
  | MGroup => kd s <> 0%N /\ p_bracestart st = false /\ p_controlseq st = false /\ p_specialchar st = false
  | MCtrl => kd s <> 0%N /\ p_bracestart st = false /\ p_controlseq st = true /\ p_specialchar st = true
  | MSpecial => kd s <> 0%N /\ p_bracestart st = false /\ p_controlseq st = false /\ p_specialchar st = true
  end.

Definition gtext (x : gword) : str := text (fst x).
Definition gcase (x : gword) : Z := zc (snd x).

(* The parser's registers st against the reference state g, which carries atoms where the parser carries text: the
   same sections of words and of cases, the same word so far (the parser's reversed), level, case and mode; no escape
   is pending between two atoms; and a fresh word starts from the initial case register. *)
Record SimRel (st : pst) (g : gst) : Prop := mkSimRel { r_secs : p_secs st = map (map gtext) (g_secs g);
  r_cases : p_cases st = map (map gcase) (g_secs g);
  r_word : p_word st = rtext (g_word g);
  r_level : p_level st = kd (g_k g);
  r_case : p_case st = zc (kk (g_k g));
  r_mode : mode_rel (g_k g) st;
  r_esc : p_esc st = false;
  r_fresh : g_word g = [] -> g_k g = k0
}.

Lemma rel0 : SimRel pst0 g0.
Proof. constructor; try reflexivity. split; reflexivity. Qed.

Definition dupd (d : N) (a : atom) : N := if is_open a then (d + 1)%N else if is_close a then N.pred d else d.

Lemma kd_case_step K a : kd (case_step K a) = dupd (kd K) a.
Proof.
  unfold case_step, dupd. destruct (is_open a); [reflexivity|]. destruct (is_close a); [reflexivity|].
  destruct a, (km K); reflexivity.
Qed.

Lemma case_step_open K c : ceq c c_lb = true -> case_step K (AChar c) = (kk K, MStart, (kd K + 1)%N).
Proof. intros E. unfold case_step. cbn [is_open]. rewrite E. reflexivity. Qed.
Lemma case_step_close K c : ceq c c_lb = false -> ceq c c_rb = true ->
  case_step K (AChar c) = (kk K, leave (kd K), N.pred (kd K)).
Proof. intros E1 E2. unfold case_step. cbn [is_open is_close]. rewrite E1, E2. reflexivity. Qed.
Lemma case_step_pair K c : case_step K (APair c) =
  match km K with
  | MStart => (kk K, if isalpha c then MCtrl else MSpecial, kd K)
  | m => (kupd (kk K) c, m, kd K)
  end.
Proof. unfold case_step. cbn [is_open is_close]. destruct (km K); reflexivity. Qed.
Lemma case_step_char K c : ceq c c_lb = false -> ceq c c_rb = false ->
  case_step K (AChar c) =
  match km K with
  | MTop => (kupd (kk K) c, MTop, kd K)
  | MStart | MGroup => (kk K, MGroup, kd K)
  | MCtrl => (kk K, if isalpha c then MCtrl else MSpecial, kd K)
  | MSpecial => (kupd (kk K) c, MSpecial, kd K)
  end.
Proof. intros E1 E2. unfold case_step. cbn [is_open is_close]. rewrite E1, E2. destruct (km K); reflexivity. Qed.

Lemma rel_cons st g a k m d w' k' b' cs' sp' : SimRel st g -> case_step (g_k g) a = (k, m, d) ->
  w' = rev (atom_text a) ++ p_word st -> k' = zc k ->
  mode_rel (k, m, d) (mkpst (p_secs st) (p_cases st) w' k' d b' cs' sp' false) ->
  SimRel (mkpst (p_secs st) (p_cases st) w' k' d b' cs' sp' false) (mkgst (g_secs g) (a :: g_word g) (case_step (g_k g) a)).
Proof.
  intros HR E -> -> Hm. rewrite E in *.
  constructor; cbn [p_secs p_cases p_word p_case p_level p_esc g_secs g_word g_k rtext kk kd fst snd].
  - exact (r_secs _ _ HR).
  - exact (r_cases _ _ HR).
  - rewrite (r_word _ _ HR). reflexivity.
  - reflexivity.
  - reflexivity.
  - exact Hm.
  - reflexivity.
  - discriminate.
Qed.

Lemma rel_push st g : SimRel st g ->
  (match p_word st with [] => p_secs st | _ => push_last (rev (p_word st)) (p_secs st) end) = map (map gtext) (gpush g)
  /\ (match p_word st with [] => p_cases st | _ => push_last (p_case st) (p_cases st) end) = map (map gcase) (gpush g).
Proof.
  intros HR. unfold gpush. rewrite (r_word _ _ HR).
  destruct (g_word g) as [|a w] eqn:Ew.
  - cbn [rtext]. split; [exact (r_secs _ _ HR) | exact (r_cases _ _ HR)].
  - assert (rtext (a :: w) <> []) as Hne by (intros E; apply rtext_nil in E; discriminate).
    destruct (rtext (a :: w)) as [|x r] eqn:Er; [contradiction|].
    rewrite (r_secs _ _ HR), (r_cases _ _ HR), (r_case _ _ HR).
    rewrite <- Er, rtext_rev.
    destruct (g_secs g) as [|y ys]; cbn [push_last map]; unfold gtext, gcase; cbn [fst snd]; auto.
Qed.

Lemma rel_close st g : SimRel st g -> SimRel (close_word st) (mkgst (gpush g) [] k0).
Proof.
  intros HR. destruct (rel_push st g HR) as [P1 P2]. unfold close_word.
  assert (Hk : p_word st = [] -> p_case st = (-1)%Z).
  { intros E. rewrite (r_case _ _ HR), (r_fresh _ _ HR); [reflexivity|]. apply rtext_nil. rewrite <- (r_word _ _ HR). exact E. }
  destruct (p_word st) as [|x w]; constructor;
    cbn [p_secs p_cases p_word p_case p_level p_esc g_secs g_word g_k rtext]; auto; try reflexivity.
  all: split; reflexivity.
Qed.

Lemma rel_newsec st G : SimRel st (mkgst G [] k0) -> SimRel (new_section st) (mkgst ([] :: G) [] k0).
Proof.
  intros HR. constructor; cbn [new_section p_secs p_cases p_word p_case p_level p_esc g_secs g_word g_k rtext map]; try reflexivity.
  - rewrite (r_secs _ _ HR). reflexivity.
  - rewrite (r_cases _ _ HR). reflexivity.
  - exact (r_case _ _ HR).
  - split; reflexivity.
Qed.

Lemma mode_bracestart K st : mode_rel K st -> p_bracestart st = match km K with MStart => true | _ => false end.
Proof. unfold mode_rel. destruct (km K); intros H; apply H. Qed.

Lemma mode_top K st : mode_rel K st -> kd K = 0%N -> km K = MTop.
Proof. unfold mode_rel. destruct (km K); intros H E; [reflexivity|..]; destruct H as [H _]; contradiction. Qed.

Lemma sim_step st g a : SimRel st g ->
  match gstep g a with
  | GOk g' => exists st', astep true (POk st) a = POk st' /\ SimRel st' g'
  | GErr e => astep true (POk st) a = PErr e
  end.
Proof.
  intros HR.
  pose proof (r_level _ _ HR) as Hlev. pose proof (r_case _ _ HR) as Hcase. pose proof (r_mode _ _ HR) as Hmode.
  (* the case register after a character that counts if it is a letter *)
  assert (Hupd : forall c, upd_case (p_case st) c = zc (kupd (kk (g_k g)) c))
    by (intros c; rewrite Hcase; symmetry; apply zc_kupd).
  unfold gstep, gword_cons. destruct a as [c|c].
  - (* an escape pair: it counts, unless it stands directly after an opening brace and starts a special character *)
    cbn [is_open is_close astep]. unfold parse_pair. rewrite (mode_bracestart _ _ Hmode), Hlev.
    pose proof (case_step_pair (g_k g) c) as E. unfold mode_rel in Hmode.
    destruct (km (g_k g)); eexists; (split; [reflexivity|]);
      (eapply rel_cons; [exact HR | exact E | reflexivity | first [apply Hupd | exact Hcase] | ]);
      unfold mode_rel; cbn [km kd fst snd p_bracestart p_controlseq p_specialchar]; try tauto.
    destruct Hmode as (Hd & _). destruct (isalpha c); auto.
  - cbn [is_open is_close astep]. unfold parse_norm. rewrite Hlev.
    destruct (ceq c c_lb) eqn:Elb.
    { eexists. split; [reflexivity|].
      eapply rel_cons; [exact HR | exact (case_step_open _ _ Elb) | reflexivity | exact Hcase | ].
      unfold mode_rel. cbn. repeat split. lia. }
    destruct (ceq c c_rb) eqn:Erb.
    { destruct (kd (g_k g) =? 0)%N eqn:Ed; cbn [negb]; [reflexivity|].
      eexists. split; [reflexivity|].
      eapply rel_cons; [exact HR | exact (case_step_close _ _ Elb Erb) | reflexivity | exact Hcase | ].
      unfold mode_rel, leave. cbn [km kd fst snd p_bracestart p_controlseq p_specialchar].
      destruct (N.pred (kd (g_k g)) =? 0)%N eqn:Ep; [apply N.eqb_eq in Ep | apply N.eqb_neq in Ep]; auto. }
    pose proof (case_step_char (g_k g) c Elb Erb) as E.
    destruct (kd (g_k g) =? 0)%N eqn:Ed; cbn [negb].
    2:{ (* inside braces: what counts depends on the mode *)
      apply N.eqb_neq in Ed. unfold mode_rel in Hmode.
      destruct (km (g_k g)); [destruct Hmode; contradiction|..]; destruct Hmode as (_ & Hb & Hc & Hs); rewrite Hc, Hs;
        eexists; (split; [reflexivity|]);
        (eapply rel_cons; [exact HR | exact E | reflexivity | first [apply Hupd | exact Hcase] | ]);
        unfold mode_rel; cbn [km kd fst snd p_bracestart p_controlseq p_specialchar]; auto.
      destruct (isalpha c); auto. }
    apply N.eqb_eq in Ed. rewrite (mode_top _ _ Hmode Ed) in E.
    pose proof (rel_close st g HR) as HR1. fold (close_word st).
    assert (Hlen : length (p_secs (close_word st)) = length (gpush g)) by (rewrite (r_secs _ _ HR1); apply map_length).
    destruct (ceq c c_comma) eqn:Ecomma; cbn [orb].
    { rewrite Hlen. destruct (length (gpush g) <? 3)%nat; [|reflexivity].
      eexists. split; [reflexivity|]. apply rel_newsec. exact HR1. }
    destruct (ws_parse c) eqn:Ews.
    { eexists. split; [reflexivity | exact HR1]. }
    eexists. split; [reflexivity|]. rewrite <- Ed at 1.
    eapply rel_cons; [exact HR | exact E | reflexivity | apply Hupd | ].
    unfold mode_rel. cbn. auto.
Qed.

Lemma gfold_err l e : fold_left gfold l (GErr e) = GErr e.
Proof. apply fold_left_fixed. reflexivity. Qed.

Lemma sim_fold A : forall st g, SimRel st g ->
  match fold_left gfold A (GOk g) with
  | GOk g' => exists st', fold_left (astep true) A (POk st) = POk st' /\ SimRel st' g'
  | GErr e => fold_left (astep true) A (POk st) = PErr e
  end.
Proof.
  induction A as [|a A IH]; intros st g HR.
  - exists st. split; [reflexivity | exact HR].
  - cbn [fold_left]. pose proof (sim_step st g a HR) as Hs. cbn [gfold].
    destruct (gstep g a) as [g1|e].
    + destruct Hs as (st1 & E1 & R1). rewrite E1. apply IH. exact R1.
    + rewrite Hs, afold_err, gfold_err. reflexivity.
Qed.

Lemma gfold_inv (P : list atom -> gst -> Prop) :
  (forall A g a g', P A g -> gstep g a = GOk g' -> P (A ++ [a]) g') ->
  forall A A0 g g', P A0 g -> fold_left gfold A (GOk g) = GOk g' -> P (A0 ++ A) g'.
Proof.
  intros Hstep. induction A as [|a A IH]; intros A0 g g' HP H.
  - cbn in H. inversion H; subst. rewrite app_nil_r. exact HP.
  - cbn [fold_left gfold] in H. destruct (gstep g a) as [g1|e] eqn:E; [|rewrite gfold_err in H; discriminate].
    replace (A0 ++ a :: A) with ((A0 ++ [a]) ++ A) by (rewrite <- app_assoc; reflexivity).
    exact (IH _ _ _ (Hstep _ _ _ _ HP E) H).
Qed.

(* cut_go (Spec.C13) as a left fold: the pieces completed so far (last first), the brace depth, the piece being read
   (reversed) *)
Definition cst := (list (list atom) * N * list atom)%type.
Definition is_sep (sep : ch -> bool) (d : N) (a : atom) : bool :=
  negb (is_open a) && negb (is_close a) && match a with AChar c => (d =? 0)%N && sep c | APair _ => false end.
Definition cstep (sep : ch -> bool) (st : cst) (a : atom) : cst :=
  let '(done, d, cur) := st in
  if is_sep sep d a then (rev cur :: done, d, []) else (done, dupd d a, a :: cur).

Lemma cut_go_step sep a l d cur :
  cut_go sep (a :: l) d cur = if is_sep sep d a then rev cur :: cut_go sep l d [] else cut_go sep l (dupd d a) (a :: cur).
Proof.
  cbn [cut_go]. unfold is_sep, dupd. destruct (is_open a); [reflexivity|]. destruct (is_close a); [reflexivity|].
  cbn [negb andb]. destruct a as [c|c]; [reflexivity|]. destruct ((d =? 0)%N && sep c); reflexivity.
Qed.

Lemma cut_go_fold sep l : forall done d cur,
  rev done ++ cut_go sep l d cur =
  (let '(done', _, cur') := fold_left (cstep sep) l (done, d, cur) in rev (rev cur' :: done')).
Proof.
  induction l as [|a l IH]; intros done d cur.
  - cbn. reflexivity.
  - rewrite cut_go_step. cbn [fold_left cstep]. destruct (is_sep sep d a).
    + rewrite <- IH. cbn [rev]. rewrite <- app_assoc. reflexivity.
    + rewrite <- IH. reflexivity.
Qed.

Lemma cut_fold sep l : cut sep l = (let '(done, _, cur) := fold_left (cstep sep) l ([], 0%N, []) in rev (rev cur :: done)).
Proof. unfold cut. rewrite <- cut_go_fold. reflexivity. Qed.

Definition not_nil {T} (l : list T) : bool := match l with [] => false | _ => true end.
Definition wc (w : list atom) : gword := (w, kk (fold_left case_step w k0)).
Definition comma (c : ch) : bool := ceq c c_comma.

Lemma is_sep_true sep d a : is_sep sep d a = true -> d = 0%N /\ is_open a = false /\ is_close a = false.
Proof.
  unfold is_sep. destruct (is_open a), (is_close a); cbn; try discriminate.
  destruct a as [c|c]; [discriminate|]. intros H. apply andb_true_iff in H. destruct H as [H _]. apply N.eqb_eq in H. auto.
Qed.

(* the reference pass by kind of atom: a comma or whitespace of depth 0, a closing brace at depth 0, or an atom of a word *)
Lemma gstep_eq g a : gstep g a =
  if is_sep comma (kd (g_k g)) a
  then (if (length (gpush g) <? 3)%nat then GOk (mkgst ([] :: gpush g) [] k0) else GErr NTooMany)
  else if is_sep ws_parse (kd (g_k g)) a then GOk (mkgst (gpush g) [] k0)
  else if negb (is_open a) && is_close a && (kd (g_k g) =? 0)%N then GErr NUnmatched
  else gword_cons g a.
Proof.
  unfold gstep, is_sep, comma. destruct (is_open a); [reflexivity|]. destruct (is_close a).
  { destruct (kd (g_k g) =? 0)%N; reflexivity. }
  destruct a as [c|c]; [reflexivity|]. destruct (kd (g_k g) =? 0)%N; [|reflexivity]. cbn [negb andb].
  destruct (ceq c c_comma); [reflexivity|]. destruct (ws_parse c); reflexivity.
Qed.

Definition sec_words (sec : list atom) : list gword := rev (map wc (words sec)).
Definition cur_words (wdone : list (list atom)) : list gword := map wc (filter not_nil wdone).

(* What the one-pass reference g holds after the atoms A, in terms of the specification's two nested cuts: A is cut at
   depth-0 commas into the finished sections j_sdone and the current one j_scur; j_scur is cut at depth-0 whitespace
   into its finished words j_wdone and the word being read, which is g's; g's depth is that of both cuts, its case
   register is the fold over its word, and its sections are the words, with their cases, of these pieces. *)
Record CutInv (A : list atom) (g : gst) : Prop := mkCutInv { j_sdone : list (list atom); j_scur : list atom; j_wdone : list (list atom);
  j_comma : fold_left (cstep comma) A ([], 0%N, []) = (j_sdone, kd (g_k g), j_scur);
  j_ws : fold_left (cstep ws_parse) (rev j_scur) ([], 0%N, []) = (j_wdone, kd (g_k g), g_word g);
  j_case : g_k g = fold_left case_step (rev (g_word g)) k0;
  j_secs : g_secs g = cur_words j_wdone :: map sec_words j_sdone
}.

Lemma j0 : CutInv [] g0.
Proof. refine (mkCutInv _ _ [] [] [] _ _ _ _); reflexivity. Qed.

Lemma filter_rev {A} (f : A -> bool) l : filter f (rev l) = rev (filter f l).
Proof.
  induction l as [|x l IH]; [reflexivity|]. cbn [rev filter]. rewrite filter_app, IH. cbn [filter].
  destruct (f x); cbn [rev]; [reflexivity | apply app_nil_r].
Qed.

Lemma sec_words_of scur wdone d word :
  fold_left (cstep ws_parse) scur ([], 0%N, []) = (wdone, d, word) ->
  sec_words scur = cur_words (rev word :: wdone).
Proof.
  intros H. unfold sec_words, cur_words. unfold words. fold (@not_nil atom). rewrite cut_fold, H.
  rewrite filter_rev, map_rev, rev_involutive. reflexivity.
Qed.

Lemma cur_words_push word wdone K : K = fold_left case_step (rev word) k0 ->
  cur_words (rev word :: wdone) = match word with [] => cur_words wdone | _ => (rev word, kk K) :: cur_words wdone end.
Proof.
  intros HK. unfold cur_words. cbn [filter]. destruct word as [|a w]; [reflexivity|].
  assert (not_nil (rev (a :: w)) = true) as ->.
  { cbn [rev]. destruct (rev w); reflexivity. }
  cbn [map]. unfold wc at 1. rewrite <- HK. reflexivity.
Qed.

Lemma gpush_eq g wdone : g_k g = fold_left case_step (rev (g_word g)) k0 ->
  forall tl, g_secs g = cur_words wdone :: tl -> gpush g = cur_words (rev (g_word g) :: wdone) :: tl.
Proof.
  intros HK tl Hs. unfold gpush. rewrite (cur_words_push _ _ _ HK), Hs.
  destruct (g_word g); reflexivity.
Qed.

Lemma j_cons A g a : CutInv A g -> is_sep comma (kd (g_k g)) a = false -> is_sep ws_parse (kd (g_k g)) a = false ->
  CutInv (A ++ [a]) (mkgst (g_secs g) (a :: g_word g) (case_step (g_k g) a)).
Proof.
  intros [sdone scur wdone Hc Hw Hk Hs] S1 S2.
  refine (mkCutInv _ _ sdone (a :: scur) wdone _ _ _ _); cbn [g_secs g_word g_k].
  - rewrite fold_left_app, Hc. cbn [fold_left cstep]. rewrite S1, kd_case_step. reflexivity.
  - cbn [rev]. rewrite fold_left_app, Hw. cbn [fold_left cstep]. rewrite S2, kd_case_step. reflexivity.
  - cbn [rev]. rewrite fold_left_app, <- Hk. reflexivity.
  - exact Hs.
Qed.

Lemma j_step A g a g' : CutInv A g -> gstep g a = GOk g' -> CutInv (A ++ [a]) g'.
Proof.
  intros HJ. rewrite gstep_eq.
  destruct (is_sep comma (kd (g_k g)) a) eqn:S1.
  { (* a comma at depth 0: the section is complete *)
    destruct (is_sep_true _ _ _ S1) as (Ed & _ & _).
    destruct (length (gpush g) <? 3)%nat; [|discriminate]. intros H; inversion H; subst g'; clear H.
    destruct HJ as [sdone scur wdone Hc Hw Hk Hs].
    refine (mkCutInv _ _ (rev scur :: sdone) [] [] _ _ _ _); cbn [g_secs g_word g_k kd k0 snd].
    - rewrite fold_left_app, Hc. cbn [fold_left cstep]. rewrite S1, Ed. reflexivity.
    - reflexivity.
    - reflexivity.
    - rewrite (gpush_eq g wdone Hk _ Hs). cbn [map].
      rewrite (sec_words_of (rev scur) wdone _ _ Hw). reflexivity. }
  destruct (is_sep ws_parse (kd (g_k g)) a) eqn:S2.
  { (* whitespace at depth 0: the word is complete *)
    destruct (is_sep_true _ _ _ S2) as (Ed & Eo & Ec).
    intros H; inversion H; subst g'; clear H.
    destruct HJ as [sdone scur wdone Hc Hw Hk Hs].
    refine (mkCutInv _ _ sdone (a :: scur) (rev (g_word g) :: wdone) _ _ _ _); cbn [g_secs g_word g_k kd k0 snd].
    - rewrite fold_left_app, Hc. cbn [fold_left cstep]. rewrite S1. unfold dupd. rewrite Eo, Ec, Ed. reflexivity.
    - cbn [rev]. rewrite fold_left_app, Hw. cbn [fold_left cstep]. rewrite S2, Ed. reflexivity.
    - reflexivity.
    - apply (gpush_eq g wdone Hk _ Hs). }
  destruct (negb (is_open a) && is_close a && (kd (g_k g) =? 0)%N); [discriminate|].
  intros H; inversion H; subst. apply j_cons; assumption.
Qed.

Lemma j_fold A A0 g g' : CutInv A0 g -> fold_left gfold A (GOk g) = GOk g' -> CutInv (A0 ++ A) g'.
Proof. apply (gfold_inv CutInv). intros; eapply j_step; eassumption. Qed.

Lemma bal_cons a r d : balanced_from (a :: r) d =
  if negb (is_open a) && is_close a && (d =? 0)%N then false else balanced_from r (dupd d a).
Proof.
  cbn [balanced_from]. unfold dupd. destruct (is_open a); [reflexivity|]. destruct (is_close a); [|reflexivity].
  cbn [negb andb]. destruct (d =? 0)%N; reflexivity.
Qed.

Lemma bal_step g a g' X : gstep g a = GOk g' ->
  balanced_from (a :: X) (kd (g_k g)) = balanced_from X (kd (g_k g')).
Proof.
  assert (Hsep : forall sep, is_sep sep (kd (g_k g)) a = true -> balanced_from (a :: X) (kd (g_k g)) = balanced_from X 0).
  { intros sep S. destruct (is_sep_true _ _ _ S) as (Ed & Eo & Ec). rewrite bal_cons. unfold dupd. rewrite Eo, Ec, Ed. reflexivity. }
  rewrite gstep_eq, bal_cons.
  destruct (is_sep comma (kd (g_k g)) a) eqn:S1.
  { destruct (length (gpush g) <? 3)%nat; [|discriminate]. intros H; inversion H; subst. rewrite <- bal_cons. exact (Hsep _ S1). }
  destruct (is_sep ws_parse (kd (g_k g)) a) eqn:S2.
  { intros H; inversion H; subst. rewrite <- bal_cons. exact (Hsep _ S2). }
  destruct (negb (is_open a) && is_close a && (kd (g_k g) =? 0)%N); [discriminate|].
  intros H; inversion H; subst. cbn [g_k]. rewrite kd_case_step. reflexivity.
Qed.

Lemma bal_fold A g' X : fold_left gfold A (GOk g0) = GOk g' ->
  balanced_from (A ++ X) 0 = balanced_from X (kd (g_k g')).
Proof.
  intros H. revert X.
  apply (gfold_inv (fun A g => forall X, balanced_from (A ++ X) 0 = balanced_from X (kd (g_k g))) ) with (A0 := []) (g := g0) (A := A);
    [|reflexivity | exact H].
  intros A1 g a g1 HP E X. rewrite <- app_assoc, HP. exact (bal_step g a g1 X E).
Qed.

Definition glen (g : gst) : Prop := (1 <= length (g_secs g) <= 3)%nat.
Lemma gpush_len g : g_secs g <> [] -> length (gpush g) = length (g_secs g).
Proof. unfold gpush. intros H. destruct (g_word g); [reflexivity|]. destruct (g_secs g); [contradiction | reflexivity]. Qed.
Lemma glen_step g a g' : glen g -> gstep g a = GOk g' -> glen g'.
Proof.
  unfold glen. intros HL. rewrite gstep_eq.
  assert (Hne : g_secs g <> []) by (destruct (g_secs g); [simpl in HL; lia | discriminate]).
  pose proof (gpush_len g Hne) as Hp.
  destruct (is_sep comma (kd (g_k g)) a).
  { destruct (length (gpush g) <? 3)%nat eqn:E; [|discriminate]. intros H; inversion H; subst. cbn [g_secs length].
    apply Nat.ltb_lt in E. lia. }
  destruct (is_sep ws_parse (kd (g_k g)) a); [intros H; inversion H; subst; cbn [g_secs]; lia|].
  destruct (negb (is_open a) && is_close a && (kd (g_k g) =? 0)%N); [discriminate|].
  intros H; inversion H; subst. exact HL.
Qed.

Lemma glen_fold A g' : fold_left gfold A (GOk g0) = GOk g' -> glen g'.
Proof.
  apply (gfold_inv (fun _ => glen) (fun _ g a g1 => glen_step g a g1) A []). unfold glen. simpl. lia.
Qed.

Lemma gfold_split A : forall g e, fold_left gfold A (GOk g) = GErr e ->
  exists A1 a A2 g1, A = A1 ++ a :: A2 /\ fold_left gfold A1 (GOk g) = GOk g1 /\ gstep g1 a = GErr e.
Proof.
  induction A as [|a A IH]; intros g e H; [discriminate|].
  cbn [fold_left gfold] in H. destruct (gstep g a) as [g1|e1] eqn:E.
  - destruct (IH _ _ H) as (A1 & b & A2 & g2 & -> & F & S). exists (a :: A1), b, A2, g2.
    cbn [fold_left gfold]. rewrite E. auto.
  - rewrite gfold_err in H. inversion H; subst. exists [], a, A, g. auto.
Qed.

Lemma cstep_mono sep l : forall done d cur done' d' cur',
  fold_left (cstep sep) l (done, d, cur) = (done', d', cur') -> (length done <= length done')%nat.
Proof.
  induction l as [|a l IH]; intros done d cur done' d' cur' H.
  - cbn in H. inversion H; subst. lia.
  - cbn [fold_left cstep] in H. destruct (is_sep sep d a); apply IH in H; simpl in *; lia.
Qed.

Lemma gstep_err g a e : gstep g a = GErr e ->
  (e = NUnmatched /\ is_open a = false /\ is_close a = true /\ kd (g_k g) = 0%N)
  \/ (e = NTooMany /\ is_sep comma (kd (g_k g)) a = true /\ kd (g_k g) = 0%N /\ (3 <= length (gpush g))%nat).
Proof.
  rewrite gstep_eq. destruct (is_sep comma (kd (g_k g)) a) eqn:S1.
  { destruct (is_sep_true _ _ _ S1) as (Ed & _ & _).
    destruct (length (gpush g) <? 3)%nat eqn:El; [discriminate|]. apply Nat.ltb_ge in El.
    intros H; inversion H; subst. right. auto. }
  destruct (is_sep ws_parse (kd (g_k g)) a); [discriminate|].
  destruct (negb (is_open a) && is_close a && (kd (g_k g) =? 0)%N) eqn:E; [|discriminate].
  apply andb_true_iff in E. destruct E as [E Ed]. apply andb_true_iff in E. destruct E as [Eo Ec].
  apply negb_true_iff in Eo. apply N.eqb_eq in Ed. intros H; inversion H; subst. left. auto.
Qed.

Lemma sections_fold A : sections A = (let '(done, _, cur) := fold_left (cstep comma) A ([], 0%N, []) in rev (rev cur :: done)).
Proof. unfold sections. apply (cut_fold comma). Qed.

Lemma err_invalid s e : fold_left gfold (atoms s) (GOk g0) = GErr e -> invalid_name s = true.
Proof.
  intros H. destruct (gfold_split _ _ _ H) as (A1 & a & A2 & g1 & EA & F & HS).
  pose proof (j_fold A1 [] g0 g1 j0 F) as HJ. cbn [app] in HJ.
  pose proof (glen_fold A1 g1 F) as HL.
  unfold invalid_name.
  destruct (gstep_err _ _ _ HS) as [(-> & Eo & Ec & Ed)|(-> & Es & Ed & Hlen)].
  - (* a closing brace at depth 0 *)
    assert (unbalanced s = true) as ->; [|reflexivity].
    unfold unbalanced, balanced. rewrite EA.
    change 0%N with (kd (g_k g0)). rewrite (bal_fold A1 g1 _ F). rewrite Ed.
    cbn [balanced_from]. rewrite Eo, Ec. reflexivity.
  - (* a third comma at depth 0 *)
    assert (too_many_commas s = true) as ->; [|rewrite orb_true_r; reflexivity].
    unfold too_many_commas. rewrite sections_fold, EA, fold_left_app.
    destruct HJ as [sdone scur wdone Hc Hw Hk Hs]. rewrite Hc. cbn [fold_left cstep]. rewrite Es.
    destruct (fold_left (cstep comma) A2 (rev scur :: sdone, kd (g_k g1), [])) as [[done' d'] cur'] eqn:Ef.
    apply cstep_mono in Ef. rewrite rev_length. cbn [length] in *.
    assert (length (g_secs g1) = S (length sdone)) by (rewrite Hs; cbn; rewrite map_length; reflexivity).
    rewrite gpush_len in Hlen by (rewrite Hs; discriminate).
    apply Nat.ltb_lt. lia.
Qed.

Definition gtail (g : gst) : pres (list (list str) * list (list Z)) :=
  if negb (kd (g_k g) =? 0)%N then PErr NUnterminated
  else match gpush g with
       | [] :: rs => if (1 <? length (gpush g))%nat then PErr NTrailing
                     else POk (rev (map (@rev str) (map (map gtext) rs)), rev (map (@rev Z) (map (map gcase) rs)))
       | W => POk (rev (map (@rev str) (map (map gtext) W)), rev (map (@rev Z) (map (map gcase) W)))
       end.

Lemma tail_rel st g : SimRel st g -> parse_tail true st = gtail g.
Proof.
  intros HR. unfold parse_tail, tail_result, tail_secs, tail_cases, last_word, gtail. rewrite (r_level _ _ HR), andb_true_r.
  destruct (kd (g_k g) =? 0)%N eqn:Ed; cbn [negb]; [|reflexivity].
  apply N.eqb_eq in Ed. rewrite Ed. cbn [N.to_nat repeat_ch app].
  destruct (rel_push st g HR) as [P1 P2]. rewrite P1, P2.
  destruct (gpush g) as [|[|x w] rs]; cbn [map]; try reflexivity.
  rewrite andb_true_r. cbn [length]. rewrite map_length. reflexivity.
Qed.

Lemma sections_via_g s :
  parse_sections true s =
  match fold_left gfold (atoms s) (GOk g0) with GOk g => gtail g | GErr e => PErr e end.
Proof.
  rewrite parse_sections_tail, (chars_atoms true s pst0 eq_refl).
  pose proof (sim_fold (atoms s) pst0 g0 rel0) as H.
  destruct (fold_left gfold (atoms s) (GOk g0)) as [g|e].
  - destruct H as (st & E & HR). rewrite E. apply tail_rel. exact HR.
  - rewrite H. reflexivity.
Qed.

Definition gz (x : gword) : zw := (gtext x, gcase x).

Lemma c2w_zc k : c2w (zc k) = k.
Proof. destruct k; reflexivity. Qed.

Lemma cw_gz_wc w : cw (gz (wc w)) = (text w, word_case w).
Proof.
  unfold cw, gz, wc, gtext, gcase. cbn [fst snd]. rewrite c2w_zc. f_equal.
  unfold word_case. rewrite <- (word_case_fold w Caseless MTop 0%N). reflexivity.
Qed.

(* a word with its case, and the cased words of a section: what Spec.C13.name_sections maps over the sections *)
Definition tw (w : list atom) : cword := (text w, word_case w).
Definition cased_words (sec : list atom) : list cword := map tw (words sec).

Lemma cased_sec_words sec : map cw (map gz (rev (sec_words sec))) = cased_words sec.
Proof.
  unfold sec_words, cased_words. rewrite rev_involutive, !map_map. apply map_ext. intros w. apply cw_gz_wc.
Qed.

Lemma text_ne w : w <> [] -> text w <> [].
Proof. destruct w as [|a w]; [contradiction|]. intros _. unfold text. cbn. destruct a; discriminate. Qed.

Lemma words_ne sec : Forall (fun w => w <> []) (words sec).
Proof.
  unfold words. apply Forall_forall. intros w Hin. apply filter_In in Hin. destruct Hin as [_ H]. destruct w; [discriminate | discriminate].
Qed.

Lemma sec_words_ne sec : Forall (fun x : zw => fst x <> []) (map gz (rev (sec_words sec))).
Proof.
  unfold sec_words. rewrite rev_involutive, map_map. apply Forall_map.
  eapply Forall_impl; [|apply words_ne]. intros w Hw. unfold gz, wc, gtext. cbn [fst]. apply text_ne. exact Hw.
Qed.

Definition Zfinal (W : list (list gword)) : list (list zw) := rev (map (@rev zw) (map (map gz) W)).

Lemma Zfinal_fst W : rev (map (@rev str) (map (map gtext) W)) = map (map fst) (Zfinal W).
Proof.
  unfold Zfinal. rewrite map_rev, !map_map. f_equal. apply map_ext. intros l.
  rewrite map_rev, map_map. reflexivity.
Qed.
Lemma Zfinal_snd W : rev (map (@rev Z) (map (map gcase) W)) = map (map snd) (Zfinal W).
Proof.
  unfold Zfinal. rewrite map_rev, !map_map. f_equal. apply map_ext. intros l.
  rewrite map_rev, map_map. reflexivity.
Qed.
Lemma Zfinal_secs L : map (map cw) (Zfinal (map sec_words L)) = map cased_words (rev L).
Proof.
  unfold Zfinal. rewrite map_rev, !map_map, map_rev. f_equal. apply map_ext. intros sec.
  rewrite <- map_rev. apply cased_sec_words.
Qed.
Lemma Zfinal_ne L : words_nonempty (Zfinal (map sec_words L)).
Proof.
  unfold Zfinal, words_nonempty. apply Forall_rev. rewrite !map_map. apply Forall_map. apply Forall_forall. intros sec _.
  rewrite <- map_rev. apply sec_words_ne.
Qed.

(* what the reference pass has when the text ends: the comma sections of the text, last one first *)
Lemma gfold_sections s g : fold_left gfold (atoms s) (GOk g0) = GOk g ->
  exists x L, sections (atoms s) = rev (x :: L) /\ gpush g = map sec_words (x :: L)
              /\ balanced (atoms s) = (kd (g_k g) =? 0)%N /\ (length L <= 2)%nat.
Proof.
  intros Ef. pose proof (j_fold (atoms s) [] g0 g j0 Ef) as HJ. cbn [app] in HJ. destruct HJ as [sdone scur wdone Hc Hw Hk Hs].
  pose proof (glen_fold (atoms s) g Ef) as HL.
  pose proof (bal_fold (atoms s) g [] Ef) as HB. rewrite app_nil_r in HB.
  exists (rev scur), sdone. split; [rewrite sections_fold, Hc; reflexivity|].
  split; [rewrite (gpush_eq g wdone Hk _ Hs); cbn [map]; rewrite (sec_words_of (rev scur) wdone _ _ Hw); reflexivity|].
  split; [exact HB|]. unfold glen in HL. rewrite Hs in HL. cbn [length] in HL. rewrite map_length in HL. lia.
Qed.

Lemma parse_name_spec s :
  match parse_name true s with
  | POk p => spec_parse s = Some p
  | PErr _ => invalid_name s = true
  end.
Proof.
  unfold parse_name. rewrite sections_via_g.
  destruct (fold_left gfold (atoms s) (GOk g0)) as [g|e] eqn:Ef; [|apply (err_invalid s e Ef)].
  destruct (gfold_sections s g Ef) as (x & L & Hsec & HW & HB & HL).
  assert (Htm : too_many_commas s = false).
  { unfold too_many_commas. rewrite Hsec, rev_length. cbn [length]. apply Nat.ltb_ge. lia. }
  assert (Hns : name_sections s = map cased_words (rev (x :: L))) by (unfold name_sections; rewrite Hsec; reflexivity).
  assert (Hlast : last (name_sections s) [] = cased_words x).
  { rewrite Hns. cbn [rev]. rewrite map_app. cbn [map]. apply last_last. }
  unfold gtail. rewrite <- HB.
  destruct (balanced (atoms s)) eqn:Hbal; cbn [negb]; [|unfold invalid_name, unbalanced; rewrite Hbal; reflexivity].
  assert (Hunb : unbalanced s = false) by (unfold unbalanced; rewrite Hbal; reflexivity).
  rewrite HW.
  destruct (sec_words x) as [|x0 w0] eqn:Ehead.
  - (* the last section has no word: a trailing comma, unless it is the only section *)
    assert (HFnil : cased_words x = []) by (rewrite <- cased_sec_words, Ehead; reflexivity).
    cbn [map]. rewrite Ehead. cbn [length]. rewrite map_length.
    destruct (1 <? S (length L))%nat eqn:E1.
    + unfold invalid_name, trailing_comma. rewrite Hlast, HFnil, Hns, map_length, rev_length. cbn [length].
      rewrite E1. cbn. apply orb_true_r.
    + assert (L = []) as -> by (apply Nat.ltb_ge in E1; destruct L; [reflexivity | simpl in E1; lia]).
      cbn. unfold spec_parse, invalid_name, trailing_comma. rewrite Hunb, Htm, Hns. cbn. rewrite HFnil. reflexivity.
  - remember (map sec_words (x :: L)) as W eqn:EW.
    assert (HWf : exists x1 w rs, W = (x1 :: w) :: rs) by (subst W; cbn [map]; rewrite Ehead; eauto).
    destruct HWf as (x1 & w1 & rs1 & EWf). rewrite EWf. cbv iota beta. rewrite <- EWf. subst W.
    rewrite Zfinal_fst, Zfinal_snd.
    set (Zs := Zfinal (map sec_words (x :: L))).
    assert (Hall : forallb (fun sec : list str => match sec with [] => true | _ => false end) (map (map fst) Zs) = forallb is_nil Zs)
      by apply forallb_nil_map.
    rewrite Hall.
    assert (Hzs : map (map cw) Zs = name_sections s) by (unfold Zs; rewrite Zfinal_secs, Hns; reflexivity).
    assert (Htr : trailing_comma s = false).
    { unfold trailing_comma. rewrite Hlast. rewrite <- cased_sec_words, Ehead.
      assert (is_nil (map cw (map gz (rev (x0 :: w0)))) = false) as -> by (cbn [rev]; destruct (rev w0); reflexivity).
      apply andb_false_r. }
    unfold spec_parse, invalid_name. rewrite Hunb, Htm, Htr. cbn [orb].
    rewrite <- Hzs, forallb_nil_map.
    destruct (forallb is_nil Zs); [reflexivity|].
    rewrite partition_eq by apply Zfinal_ne. reflexivity.
Qed.

Theorem tokeniser_agreement s :
  (forall p, spec_parse s = Some p <-> parse_name true s = POk p)
  /\ (invalid_name s = true <-> exists e, parse_name true s = PErr e).
Proof.
  pose proof (parse_name_spec s) as H. unfold spec_parse in *.
  destruct (parse_name true s) as [p|e]; split.
  - intros q. rewrite H. split; intros E; inversion E; reflexivity.
  - split; [|intros [e E]; discriminate]. intros Hi. rewrite Hi in H. discriminate.
  - intros q. rewrite H. split; discriminate.
  - split; [intros _; eexists; reflexivity | intros _; exact H].
Qed.

Lemma tok_partition s p : spec_parse s = Some p <-> parse_name true s = POk p.
Proof. exact (proj1 (tokeniser_agreement s) p). Qed.
Lemma tok_invalid s : invalid_name s = true <-> exists e, parse_name true s = PErr e.
Proof. exact (proj2 (tokeniser_agreement s)). Qed.
Lemma tok_partition_sections s p : parse_name true s = POk p ->
  p = if forallb is_nil (name_sections s) then parts0 else partition_spec (name_sections s).
Proof.
  intros H. apply tok_partition in H. unfold spec_parse in H.
  destruct (invalid_name s); [discriminate|]. destruct (forallb is_nil (name_sections s)); inversion H; reflexivity.
Qed.

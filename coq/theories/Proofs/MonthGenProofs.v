(* The generalised C15 (Model/MonthGen.v) in closed form: the three month middlewares over CPython's real
   str.lower / int, the oracle hypotheses of Spec/C15Gen.v (oracles_ok) as explicit premises; an executable
   instance with non-ASCII oracle behaviour; and how the ASCII theorems are covered.  The development itself is in
   Proofs/MonthProofs.v. *)
From Coq Require Import List NArith ZArith Bool Lia.
From BP Require Import Base.Chars Model.Blocks Gen.Constants Model.Month Model.MonthGen Spec.C15 Spec.C15Gen
  Proofs.MonthProofs.
Import ListNotations.
Local Open Scope Z_scope.

(* wherever the ASCII model gives an answer (not MSkip) the generalised functions at the instance lower / int_of_decimal
   give the same answer *)
Lemma gen_instance k v : resolve k v <> MSkip -> to_mres (resolve_g lower int_of_decimal k v) = resolve k v.
Proof. intros N. destruct (resolve_instance k v) as [E|[E _]]; [symmetry; exact E | contradiction]. Qed.

Lemma gen_instance_all k v : oracles_ok lower
  /\ (resolve k v <> MSkip -> to_mres (resolve_g lower int_of_decimal k v) = resolve k v).
Proof. split; [exact ascii_instance_ok | apply gen_instance]. Qed.

Lemma gen_spellings lowerU intU : oracles_ok lowerU -> forall m v, 1 <= m <= 12 -> spells_g lowerU intU m v ->
  resolve_g lowerU intU MInt v = GVal (VInt m)
  /\ resolve_g lowerU intU MAbbrev v = GVal (VStr (abbrev_of m))
  /\ resolve_g lowerU intU MLong v = GVal (VStr (full_of m)).
Proof. intros (H1 & H2). apply spellings_resolve_g; assumption. Qed.

Lemma gen_compose lowerU intU : oracles_ok lowerU -> forall f g v v1, v <> VBool true ->
  resolve_g lowerU intU f v = GVal v1 -> resolve_g lowerU intU g v1 = resolve_g lowerU intU g v.
Proof. intros (H1 & H2). apply compose_g; assumption. Qed.

Lemma gen_others lowerU intU : oracles_ok lowerU -> forall k v,
  ~ is_month_spelling_g lowerU intU v -> v <> VBool true -> resolve_g lowerU intU k v = GVal v.
Proof. intros (H1 & H2). apply others_unchanged_g; assumption. Qed.

Lemma gen_no_raise lowerU intU : oracles_ok lowerU -> forall k v, resolve_g lowerU intU k v <> GRaise.
Proof. intros (H1 & _). apply never_raises_g; assumption. Qed.

Lemma gen_no_raise_rows lowerU intU : lower_rows_ok lowerU -> forall k v, resolve_g lowerU intU k v <> GRaise.
Proof. intros H1. apply never_raises_g; assumption. Qed.

Lemma gen_refused_decimal lowerU intU : oracles_ok lowerU -> forall k s, str_isdecimal s = true -> intU s = None ->
  ~ is_month_spelling_g lowerU intU (VStr s) /\ resolve_g lowerU intU k (VStr s) = GVal (VStr s).
Proof.
  intros (H1 & H2) k s D P.
  assert (month_of_g lowerU intU (VStr s) = None) as N by (unfold month_of_g; rewrite D, P; reflexivity).
  split; [exact (month_of_g_None lowerU intU H1 H2 _ N) | apply (resolve_other_g lowerU intU H1 H2 k _ N); discriminate].
Qed.

(* ================================================================================================
   A second, executable instance whose oracles are NOT the ASCII ones: the hypotheses are satisfiable by
      oracles that show the non-ASCII behaviours of CPython the ASCII model excludes:
        lower():  KELVIN SIGN U+212A -> 'k' (a non-ASCII character whose lower() is ASCII),
                  U+0130 -> 'i' + U+0307 (lower() changes the length)
        _int_of_decimal_str():  ARABIC-INDIC digits U+0660..U+0669 next to ASCII digits; drops leading zeros
                  (all but the last character), then refuses more than 4300 digits                      *)
Definition c_kelvin : ch := 1086742%N.    (* U+212A, flags alpha|upper|word *)
Definition c_Idot : ch := 38934%N.        (* U+0130, flags alpha|upper|word *)
Definition c_dot_above : ch := 99200%N.   (* U+0307, no flags *)
Definition lower_x_ch (c : ch) : str :=
  if (c =? c_kelvin)%N then [asc 107] else if (c =? c_Idot)%N then [asc 105; c_dot_above] else [lower_ch c].
Definition lower_x (s : str) : str := flat_map lower_x_ch s.

Definition digit_x (c : ch) : option N :=
  match ascii_digit_val c with
  | Some d => Some d
  | None => if (N.land c 127 =? 56)%N && (1632 <=? code c)%N && (code c <=? 1641)%N then Some (code c - 1632)%N else None
  end.
Fixpoint int_x_acc (s : str) (acc : N) : option N :=
  match s with
  | [] => Some acc
  | c :: r => match digit_x c with Some d => int_x_acc r (acc * 10 + d)%N | None => None end
  end.
(* while start < len(value) - 1 and unicodedata.decimal(value[start]) == 0: start += 1 *)
Fixpoint strip_zeros (s : str) : str :=
  match s with
  | c :: r => match r with
              | [] => s
              | _ :: _ => match digit_x c with Some 0%N => strip_zeros r | _ => s end
              end
  | [] => []
  end.
Definition max_str_digits : nat := 4300.
Definition int_x (s : str) : option Z :=
  let t := strip_zeros s in
  if (length t <=? max_str_digits)%nat
  then match t with [] => None | _ => match int_x_acc t 0 with Some n => Some (Z.of_N n) | None => None end end
  else None.

Lemma instance_x_ok : oracles_ok lower_x.
Proof.
  split.
  - intros r Hr. apply str_eqb_eq.
    assert (forallb (fun r => str_eqb (lower_x r) (lower r)) (month_abbrev ++ month_full) = true) as T by (vm_compute; reflexivity).
    rewrite forallb_forall in T. apply T. apply in_or_app. exact Hr.
  - intros s D.
    assert (forallb isdecimal s = true -> lower_x s = s) as K.
    { clear D. induction s as [|c s IH]; [reflexivity|]. simpl. intros H. apply andb_true_iff in H as [H1 H2].
      rewrite (IH H2). unfold lower_x_ch.
      destruct (c =? c_kelvin)%N eqn:E1; [apply N.eqb_eq in E1; subst c; discriminate H1|].
      destruct (c =? c_Idot)%N eqn:E2; [apply N.eqb_eq in E2; subst c; discriminate H1|].
      rewrite (lower_ch_decimal c H1). reflexivity. }
    destruct s as [|c s]; [discriminate D|]. rewrite (K D). exact D.
Qed.

Definition arabic_12 : str := [209080; 209208]%N.                    (* U+0661 U+0662 *)
Definition oKt : str := [asc 111; c_kelvin; asc 116].               (* 'o', KELVIN SIGN, 't' *)
Definition long_one : str := repeat (asc 48) 4300 ++ [asc 49].       (* 4300 zeros and a one *)
Definition long_ones : str := repeat (asc 49) 4301.                  (* 4301 ones *)

(* The two long strings are not evaluated character by character: what the oracles do with n repeated digits is
   proved for every n. *)
Lemma str_isdecimal_iff s : str_isdecimal s = true <-> s <> [] /\ forallb isdecimal s = true.
Proof.
  destruct s; cbn [str_isdecimal]; [split; [discriminate | intros [H _]; contradiction H; reflexivity]|].
  split; [intros H; split; [discriminate | exact H] | tauto].
Qed.
Lemma forallb_repeat {A} (p : A -> bool) c n : p c = true -> forallb p (repeat c n) = true.
Proof. intros H. induction n as [|n IH]; cbn [repeat forallb]; [reflexivity | rewrite H; exact IH]. Qed.

Lemma strip_zeros_zeros n c : strip_zeros (repeat (asc 48) n ++ [c]) = [c].
Proof.
  induction n as [|n IH]; [reflexivity|]. cbn [repeat app strip_zeros].
  destruct (repeat (asc 48) n ++ [c]) eqn:E; [destruct n; discriminate E|].
  change (digit_x (asc 48)) with (Some 0%N). exact IH.
Qed.
Lemma strip_zeros_nonzero c r : digit_x c <> Some 0%N -> strip_zeros (c :: r) = c :: r.
Proof. intros H. destruct r; [reflexivity|]. cbn [strip_zeros]. destruct (digit_x c) as [[|p]|]; [contradiction H| |]; reflexivity. Qed.

Lemma zeros_one_reads_1 n : str_isdecimal (repeat (asc 48) n ++ [asc 49]) = true /\ int_x (repeat (asc 48) n ++ [asc 49]) = Some 1.
Proof.
  split.
  - apply str_isdecimal_iff. split; [intros E; apply app_eq_nil in E as [_ E]; discriminate E|].
    rewrite forallb_app, forallb_repeat by reflexivity. reflexivity.
  - unfold int_x. rewrite strip_zeros_zeros. reflexivity.
Qed.
Lemma ones_refused n : (max_str_digits < n)%nat -> str_isdecimal (repeat (asc 49) n) = true /\ int_x (repeat (asc 49) n) = None.
Proof.
  intros H. destruct n as [|n]; [inversion H|]. split.
  - apply str_isdecimal_iff. split; [discriminate | apply forallb_repeat; reflexivity].
  - unfold int_x. cbn [repeat]. rewrite strip_zeros_nonzero by (vm_compute; discriminate).
    cbn [length]. rewrite repeat_length, (proj2 (Nat.leb_gt _ _) H). reflexivity.
Qed.

(* the theorems applied at this instance (not computed: derived from gen_spellings / gen_others) *)
Lemma example_x_arabic :
  resolve_g lower_x int_x MInt (VStr arabic_12) = GVal (VInt 12)
  /\ resolve_g lower_x int_x MAbbrev (VStr arabic_12) = GVal (VStr (abbrev_of 12))
  /\ resolve_g lower_x int_x MLong (VStr arabic_12) = GVal (VStr (full_of 12)).
Proof.
  apply (gen_spellings _ _ instance_x_ok); [lia|]. right; left. exists arabic_12.
  split; [reflexivity|]. split; vm_compute; reflexivity.
Qed.

(* a month table containing a 'k' would make the KELVIN SIGN a letter-case variant; with the shipped table
   'o' + KELVIN SIGN + 't' lowers to the ASCII word "okt", which is no row: unchanged by all three *)
Lemma example_x_kelvin k : lower_x oKt = [asc 111; asc 107; asc 116] /\ resolve_g lower_x int_x k (VStr oKt) = GVal (VStr oKt).
Proof. split; [vm_compute; reflexivity | destruct k; vm_compute; reflexivity]. Qed.

(* 4300 zeros and a one: month 1, the leading zeros do not count towards int()'s digit limit *)
Lemma example_x_long_one :
  resolve_g lower_x int_x MInt (VStr long_one) = GVal (VInt 1)
  /\ resolve_g lower_x int_x MAbbrev (VStr long_one) = GVal (VStr (abbrev_of 1))
  /\ resolve_g lower_x int_x MLong (VStr long_one) = GVal (VStr (full_of 1)).
Proof.
  apply (gen_spellings _ _ instance_x_ok); [lia|]. right; left. exists long_one.
  split; [reflexivity | exact (zeros_one_reads_1 max_str_digits)].
Qed.

(* 4301 ones: refused by int(); not a spelling, returned as it is by all three *)
Lemma example_x_long_ones k :
  int_x long_ones = None /\ ~ is_month_spelling_g lower_x int_x (VStr long_ones)
  /\ resolve_g lower_x int_x k (VStr long_ones) = GVal (VStr long_ones).
Proof.
  destruct (ones_refused (S max_str_digits) (Nat.lt_succ_diag_r _)) as [D P].
  split; [exact P|]. exact (gen_refused_decimal _ _ instance_x_ok k long_ones D P).
Qed.

(* an int of more than 4300 digits: out of range, returned as it is by all three *)
Lemma example_x_big_int k : resolve_g lower_x int_x k (VInt (10 ^ 4300)) = GVal (VInt (10 ^ 4300)).
Proof.
  apply (gen_others _ _ instance_x_ok); [|discriminate].
  destruct instance_x_ok as [H1 H2]. apply month_of_g_None; [assumption..|].
  assert (12 < 10 ^ 4300) as B
    by (apply Z.lt_le_trans with (10 ^ 2); [reflexivity | apply Z.pow_le_mono_r; lia]).
  unfold month_of_g, in_range. rewrite (proj2 (Z.leb_gt _ _) B), andb_false_r. reflexivity.
Qed.

(* ================================================================================================
   The natural form of the lower() hypothesis, and: every spelling of the ASCII theorem is a spelling here *)
Lemma table_ascii r : In r month_abbrev \/ In r month_full \/ In r lowercase_full -> is_ascii r = true.
Proof.
  assert (forallb is_ascii (month_abbrev ++ month_full ++ lowercase_full) = true) as T by (vm_compute; reflexivity).
  rewrite forallb_forall in T. intros H. apply T. rewrite !in_app_iff. exact H.
Qed.

Lemma ascii_agree_rows lowerU : lower_ascii_agree lowerU -> lower_rows_ok lowerU.
Proof. intros H r Hr. apply H, table_ascii. tauto. Qed.

Lemma ascii_flags_upper q : (65 <= q <= 90)%N -> ascii_flags q = 22%N.
Proof.
  intros H. unfold ascii_flags.
  rewrite (proj2 (N.leb_gt q 13)), (proj2 (N.leb_gt q 32)), (proj2 (N.leb_gt q 57)),
    (proj2 (N.leb_le 65 q)), (proj2 (N.leb_le q 90)) by lia.
  rewrite !andb_false_r. reflexivity.
Qed.

(* the ASCII lower-casing only ever changes ASCII characters, so a string it maps to an ASCII-only string is ASCII-only *)
Lemma lower_ch_ascii_back c : ascii_ch (lower_ch c) = true -> ascii_ch c = true.
Proof.
  unfold lower_ch. destruct ((asc 65 <=? c)%N && (c <=? asc 90)%N && (N.land c 127 =? 22)%N) eqn:E; [|auto]. intros _.
  apply andb_true_iff in E as [E E3]. apply andb_true_iff in E as [E1 E2].
  apply N.leb_le in E1. apply N.leb_le in E2. apply N.eqb_eq in E3.
  change 127%N with (N.ones 7) in E3. rewrite N.land_ones in E3.
  pose proof (N.div_mod c (2 ^ 7) ltac:(discriminate)) as Q. rewrite E3 in Q.
  change (asc 65) with 8342%N in E1. change (asc 90) with 11542%N in E2. change (2 ^ 7)%N with 128%N in Q.
  unfold ascii_ch, code. rewrite N.shiftr_div_pow2. change (2 ^ 7)%N with 128%N.
  set (q := (c / 128)%N) in *. assert (65 <= q <= 90)%N as Hq by lia.
  apply andb_true_iff. split; [apply N.ltb_lt; lia|]. apply N.eqb_eq. unfold asc. rewrite (ascii_flags_upper q Hq). lia.
Qed.
Lemma lower_ascii_back s : is_ascii (lower s) = true -> is_ascii s = true.
Proof.
  induction s as [|c s IH]; [reflexivity|]. cbn [lower map is_ascii forallb]. intros H. apply andb_true_iff in H as [H1 H2].
  rewrite (lower_ch_ascii_back c H1). exact (IH H2).
Qed.

Lemma spells_covered lowerU intU m v : lower_ascii_agree lowerU -> int_ascii_agree intU -> 1 <= m <= 12 ->
  spells m v -> spells_g lowerU intU m v.
Proof.
  intros HL HI Hm [H|[(s & Hv & Hd & Hp)|[(s & Hv & Hl)|(s & Hv & Hl)]]]; subst v.
  - left; reflexivity.
  - right; left. exists s. split; [reflexivity|]. split; [exact Hd|].
    pose proof (HI s _ Hp) as Q. destruct (intU s) as [z|].
    + rewrite Q. f_equal. lia.
    + exfalso. assert (Z.to_N m <= 12)%N as B by (clear - Hm; lia). pose proof (N.le_trans _ _ _ Q B) as C.
      vm_compute in C. apply C. reflexivity.
  - right; right; left. exists s. split; [reflexivity|]. rewrite <- Hl. apply HL, lower_ascii_back. rewrite Hl.
    apply table_ascii. left. apply nth_In. rewrite abbrev_length. lia.
  - right; right; right. exists s. split; [reflexivity|].
    rewrite (ascii_agree_rows lowerU HL (full_of m)) by (right; apply nth_In; rewrite full_length; lia).
    rewrite <- Hl. apply HL, lower_ascii_back. rewrite Hl. unfold full_of. rewrite <- lowercase_full_nth.
    apply table_ascii. right; right. apply nth_In. rewrite lowercase_full_length. lia.
Qed.

(* ================================================================================================
   True: `isinstance(True, int)` holds, so the long / abbreviation middlewares read it as month 1 while the int
      middleware (str only) returns it.  Whichever way the property text is read this value breaks one clause:
      it is not a spelling in the sense of spells_g yet it is changed, and int-after-long differs from int alone. *)
Lemma gen_bool_refuted lowerU intU : oracles_ok lowerU ->
  ~ is_month_spelling_g lowerU intU (VBool true)
  /\ resolve_g lowerU intU MAbbrev (VBool true) = GVal (VStr (abbrev_of 1))
  /\ (exists v1, resolve_g lowerU intU MLong (VBool true) = GVal v1
                 /\ resolve_g lowerU intU MInt v1 = GVal (VInt 1)
                 /\ resolve_g lowerU intU MInt (VBool true) = GVal (VBool true)).
Proof.
  intros Hok. split; [|split].
  - intros (m & _ & [H|[(s & H & _)|[(s & H & _)|(s & H & _)]]]); discriminate H.
  - reflexivity.
  - exists (VStr (full_of 1)). split; [reflexivity|]. split; [|reflexivity].
    apply (gen_spellings _ _ Hok 1); [lia|]. right; right; right. exists (full_of 1). split; reflexivity.
Qed.

(* The executable deep copy completes and is a GRAPH ISOMORPHISM onto fresh objects.

   The contract C07 needs of a deep copy (old objects untouched, the result shares nothing with them) would also be met by
   a "copy" that returned one fresh empty object.  Here: the copy has the CONTENT of the original and the SHARING of the
   original - there is an injective renaming (the memo) of the objects reachable from the root onto fresh objects such
   that the copy of every object is that object with every reference renamed; atoms are kept.

   One induction on the fuel gives all of it, completion included.  The fuel bounds the recursion DEPTH (all children of
   one object are copied with the same remaining fuel).  The memo's keys are pairwise distinct objects of the initial heap
   h0, so length memo <= length h0; every nested non-memoised visit has first pushed its own key and the memo never
   shrinks, so  length h0 < fuel + length memo  holds at every call if it holds at the first, and leaves one unit of fuel
   at every call.  The dangling branch is excluded because the visited object is an unchanged object of h0. *)
From Coq Require Import List ZArith Bool Arith Lia.
From BP Require Import Model.Heap Model.HeapMw Proofs.Common Proofs.HeapProofs.
Import ListNotations.

Lemma pvs_refs : forall ob q, In (PRef q) (obj_pvs ob) -> In q (refs_of ob).
Proof. intros ob q I. unfold refs_of. apply in_flat_map. exists (PRef q). split; [exact I | simpl; auto]. Qed.

Lemma refs_pvs : forall ob q, In q (refs_of ob) -> In (PRef q) (obj_pvs ob).
Proof.
  intros ob q I. unfold refs_of in I. apply in_flat_map in I. destruct I as [v [Iv Q]].
  destruct v as [a|o]; simpl in Q; [contradiction|]. destruct Q as [->|[]]. exact Iv.
Qed.

Lemma memo_get_in : forall m o v, memo_get m o = Some v -> In (o, v) m.
Proof.
  induction m as [|[k w] r IH]; simpl; intros o v H; [discriminate|].
  destruct (Nat.eqb k o) eqn:E; [apply Nat.eqb_eq in E; inversion H; subst; auto | right; auto].
Qed.

Lemma shell_no_refs : forall ob q, ~ In q (refs_of (shell ob)).
Proof. intros [l|d|c a] q I; inversion I. Qed.

Lemma refs_rebuild : forall ob l q, In q (refs_of (rebuild ob l)) -> exists v, In v l /\ In q (pv_refs v).
Proof.
  intros ob l q I. destruct ob as [l0|d|c a]; simpl in I.
  - apply refs_of_list in I. exact I.
  - apply refs_of_dict in I. destruct I as [k [v [I Q]]]. exists v. split; [eapply in_combine_r; eauto | auto].
  - apply refs_of_inst in I. destruct I as [k [v [I Q]]]. exists v. split; [eapply in_combine_r; eauto | auto].
Qed.

(* related lists: every member of either has a partner in the other *)
Lemma Forall2_In {A B} (R : A -> B -> Prop) l l' : Forall2 R l l' ->
  (forall x, In x l -> exists y, In y l' /\ R x y) /\ (forall y, In y l' -> exists x, In x l /\ R x y).
Proof.
  induction 1 as [|a b l l' Hab _ [IHl IHr]]; [split; intros ? []|]. split.
  - intros x [<-|I]; [exists b; simpl; auto|]. destruct (IHl x I) as (y & Iy & Ry). exists y. simpl. auto.
  - intros y [<-|I]; [exists a; simpl; auto|]. destruct (IHr y I) as (x & Ix & Rx). exists x. simpl. auto.
Qed.

Lemma memo_get_cons : forall m o o' k, memo_get ((o, o') :: m) k = if Nat.eqb o k then Some o' else memo_get m k.
Proof. reflexivity. Qed.

(* renaming of one value under a memo *)
Inductive renrel (m : memo) : pv -> pv -> Prop :=
| rr_atom : forall a, renrel m (PAtom a) (PAtom a)
| rr_ref : forall q q', memo_get m q = Some q' -> renrel m (PRef q) (PRef q').

(* the object p' of h' is the finished copy of the object p of h *)
Definition is_copy_of (h h' : heap) (m : memo) (p p' : nat) : Prop :=
  exists ob l', lookup h p = Some ob /\ lookup h' p' = Some (rebuild ob l') /\ Forall2 (renrel m) (obj_pvs ob) l'.
(* the copy of k has been created and registered, its content is still to come (k is on the recursion stack) *)
Definition pending (h0 h : heap) (k v : nat) : Prop :=
  exists ob, lookup h0 k = Some ob /\ lookup h v = Some (shell ob).

Definition mext (m m' : memo) : Prop := forall k v, memo_get m k = Some v -> memo_get m' k = Some v.
Definition mkeys (m : memo) : list nat := map fst m.

(* the state of a copy in progress: h0 the heap at the call, h the heap now, m the memo *)
Record copy_inv (h0 h : heap) (m : memo) : Prop := {
  i_unch : unchanged h0 h;                                         (* the objects of h0 are as they were *)
  i_keys : forall k v, memo_get m k = Some v -> In k (dom h0) /\ ~ In v (dom h0) /\ In v (dom h);   (* old -> new *)
  i_inj : forall k1 k2 v, memo_get m k1 = Some v -> memo_get m k2 = Some v -> k1 = k2;
  i_state : forall k v, memo_get m k = Some v -> pending h0 h k v \/ is_copy_of h0 h m k v;
  i_new : forall p, In p (dom h) -> In p (dom h0) \/ exists k, memo_get m k = Some p;   (* nothing else was allocated *)
  i_nodup : NoDup (mkeys m)                                         (* with i_keys: length m <= length h0, the fuel bound *)
}.

Lemma memo_get_none : forall m o, memo_get m o = None -> ~ In o (mkeys m).
Proof.
  induction m as [|[k v] r IH]; simpl; intros o H; [tauto|].
  destruct (Nat.eqb k o) eqn:E; [discriminate|].
  intros [I|I]; [subst; rewrite Nat.eqb_refl in E; discriminate | exact (IH o H I)].
Qed.

Lemma mkeys_get : forall m k, In k (mkeys m) -> exists v, memo_get m k = Some v.
Proof.
  induction m as [|[k' v'] r IH]; simpl; intros k H; [contradiction|].
  destruct (Nat.eqb k' k) eqn:E; [eauto|]. destruct H as [->|H]; [rewrite Nat.eqb_refl in E; discriminate | auto].
Qed.

Lemma copy_inv_length : forall h0 h m, copy_inv h0 h m -> length m <= length h0.
Proof.
  intros h0 h m I. assert (C : incl (mkeys m) (dom h0)).
  { intros k Ik. destruct (mkeys_get m k Ik) as [v G]. apply (i_keys _ _ _ I k v G). }
  pose proof (NoDup_incl_length (i_nodup _ _ _ I) C) as L. unfold mkeys, dom in L. rewrite !map_length in L. exact L.
Qed.
Lemma copy_inv_init : forall h, copy_inv h h [].
Proof.
  intros h. constructor; try (intros; simpl in *; discriminate); [apply unchanged_refl | auto | constructor].
Qed.

Lemma mext_refl : forall m, mext m m.
Proof. intros m k v H; exact H. Qed.
Lemma mext_trans : forall a b c, mext a b -> mext b c -> mext a c.
Proof. intros a b c X Y k v H; auto. Qed.

Lemma forall2_renrel_mono : forall m m' l l', mext m m' -> Forall2 (renrel m) l l' -> Forall2 (renrel m') l l'.
Proof. intros m m' l l' X F. induction F as [|a b l l' R]; constructor; [destruct R; constructor; auto | auto]. Qed.

Lemma copy_mono : forall h0 h h' m m' k v,
  mext m m' -> lookup h' v = lookup h v -> is_copy_of h0 h m k v -> is_copy_of h0 h' m' k v.
Proof.
  intros h0 h h' m m' k v X L (ob & l' & A & B & C). exists ob, l'.
  split; [exact A|]. split; [rewrite L; exact B | eapply forall2_renrel_mono; eauto].
Qed.

Lemma pending_same : forall h0 h h' k v, lookup h' v = lookup h v -> pending h0 h k v -> pending h0 h' k v.
Proof. intros h0 h h' k v L (ob & A & B). exists ob. split; [exact A | rewrite L; exact B]. Qed.

(* a registered copy whose object is not written keeps its state *)
Lemma state_keep : forall h0 h h' m m' k v, mext m m' -> lookup h' v = lookup h v ->
  pending h0 h k v \/ is_copy_of h0 h m k v -> pending h0 h' k v \/ is_copy_of h0 h' m' k v.
Proof. intros h0 h h' m m' k v X L [P|C]; [left; eapply pending_same | right; eapply copy_mono]; eauto. Qed.

(* entering an object not yet copied: its empty copy is created and registered *)
Lemma copy_inv_push : forall h0 h m o ob, copy_inv h0 h m -> In o (dom h0) -> lookup h0 o = Some ob -> memo_get m o = None ->
  copy_inv h0 (set_obj h (fresh h) (shell ob)) ((o, fresh h) :: m) /\ mext m ((o, fresh h) :: m).
Proof.
  intros h0 h m o ob [Iu Ik Ii Is In' Id] Do L0 EM. set (o1 := fresh h).
  assert (Nh : ~ In o1 (dom h)) by apply fresh_not_in.
  assert (N0 : ~ In o1 (dom h0)) by (intros X; apply Nh; eapply unchanged_dom; eauto).
  assert (Xa : mext m ((o, o1) :: m)).
  { intros k v A. rewrite memo_get_cons. destruct (Nat.eqb o k) eqn:Eq; [|exact A].
    apply Nat.eqb_eq in Eq. subst k. rewrite EM in A. discriminate. }
  split; [|exact Xa]. constructor.
  - apply unchanged_set_new; auto.
  - intros k v A. rewrite memo_get_cons in A. destruct (Nat.eqb o k) eqn:Eq.
    + apply Nat.eqb_eq in Eq. inversion A; subst. split; [exact Do|]. split; [exact N0|]. apply dom_set. auto.
    + destruct (Ik k v A) as (A1 & A2 & A3). split; [exact A1|]. split; [exact A2|]. apply dom_set. auto.
  - intros k1 k2 v A B. rewrite memo_get_cons in A, B.
    destruct (Nat.eqb o k1) eqn:E1; destruct (Nat.eqb o k2) eqn:E2.
    + apply Nat.eqb_eq in E1, E2. congruence.
    + inversion A; subst. destruct (Ik k2 o1 B) as (_ & _ & X). contradiction.
    + inversion B; subst. destruct (Ik k1 o1 A) as (_ & _ & X). contradiction.
    + eapply Ii; eauto.
  - intros k v A. rewrite memo_get_cons in A. destruct (Nat.eqb o k) eqn:Eq.
    + apply Nat.eqb_eq in Eq. inversion A; subst. left. exists ob. split; [exact L0 | apply lookup_set_same].
    + assert (v <> o1) by (intros ->; destruct (Ik k o1 A) as (_ & _ & X); contradiction).
      apply (state_keep h0 h _ m _ k v Xa); [apply lookup_set_other; auto | exact (Is k v A)].
  - intros p [<-|Ip]; [right; exists o; rewrite memo_get_cons, Nat.eqb_refl; reflexivity|].
    destruct (In' p Ip) as [?|[k A]]; [left; assumption | right; exists k; apply Xa, A].
  - constructor; [apply memo_get_none, EM | exact Id].
Qed.

(* leaving an object: its copy, registered as o1, gets its content; no other registered copy is touched *)
Lemma copy_inv_finish : forall h0 h m o o1 ob l', copy_inv h0 h m -> memo_get m o = Some o1 -> lookup h0 o = Some ob ->
  Forall2 (renrel m) (obj_pvs ob) l' ->
  copy_inv h0 (set_obj h o1 (rebuild ob l')) m /\ is_copy_of h0 (set_obj h o1 (rebuild ob l')) m o o1
  /\ (forall k v, memo_get m k = Some v -> k <> o -> lookup (set_obj h o1 (rebuild ob l')) v = lookup h v).
Proof.
  intros h0 h m o o1 ob l' [Iu Ik Ii Is In' Id] G L0 F.
  assert (Done : is_copy_of h0 (set_obj h o1 (rebuild ob l')) m o o1).
  { exists ob, l'. split; [exact L0|]. split; [apply lookup_set_same | exact F]. }
  assert (Keep : forall k v, memo_get m k = Some v -> k <> o -> lookup (set_obj h o1 (rebuild ob l')) v = lookup h v).
  { intros k v A Nk. apply lookup_set_other. intros <-. apply Nk. eapply Ii; eauto. }
  split; [|exact (conj Done Keep)]. constructor; auto.
  - apply unchanged_set_new; [exact Iu | apply (Ik o o1 G)].
  - intros k v A. destruct (Ik k v A) as (A1 & A2 & A3). split; [exact A1|]. split; [exact A2|]. apply dom_set. auto.
  - intros k v A. destruct (Nat.eq_dec k o) as [->|Nk].
    + rewrite G in A. inversion A; subst. right. exact Done.
    + exact (state_keep h0 h _ m m k v (mext_refl m) (Keep k v A Nk) (Is k v A)).
  - intros p [<-|Ip]; [right; exists o; exact G | apply In', Ip].
Qed.

(* what a stretch of the copy does: the invariant is kept, the memo and the heap only grow, the copies registered
   before are not touched, and every copy registered during the stretch is finished at its end *)
Record post (h0 h : heap) (m : memo) (h' : heap) (m' : memo) : Prop := {
  p_inv : copy_inv h0 h' m';
  p_ext : mext m m';
  p_len : length m <= length m';
  p_keep : forall k v, memo_get m k = Some v -> lookup h' v = lookup h v;
  p_done : forall k v, memo_get m' k = Some v -> memo_get m k = None -> is_copy_of h0 h' m' k v;
  p_dom : forall p, In p (dom h) -> In p (dom h')
}.

Lemma post_refl : forall h0 h m, copy_inv h0 h m -> post h0 h m h m.
Proof.
  intros h0 h m I. constructor; auto using mext_refl. intros k v A B. rewrite A in B. discriminate.
Qed.

Lemma post_trans : forall h0 h m h1 m1 h2 m2, post h0 h m h1 m1 -> post h0 h1 m1 h2 m2 -> post h0 h m h2 m2.
Proof.
  intros h0 h m h1 m1 h2 m2 [_ X1 L1 U1 N1 D1] [I2 X2 L2 U2 N2 D2]. constructor; auto.
  - eapply mext_trans; eauto.
  - lia.
  - intros k v A. rewrite (U2 k v (X1 k v A)). apply (U1 k v A).
  - intros k v A B. destruct (memo_get m1 k) as [v1|] eqn:E2; [|apply (N2 k v A E2)].
    (* registered in the first stretch: finished at its end and not touched in the second *)
    assert (v1 = v) by (apply X2 in E2; rewrite E2 in A; inversion A; auto). subst v1.
    exact (copy_mono _ _ _ _ _ _ _ X2 (U2 k v E2) (N1 k v E2 B)).
Qed.

(* what one call guarantees with the budget n: it completes, and returns the registered copy of o *)
Definition iso_spec (h0 : heap) (n : nat) (rec : heap -> memo -> nat -> heap * memo * nat * bool) : Prop :=
  forall h m o, copy_inv h0 h m -> In o (dom h0) -> length h0 < n + length m ->
    exists h' m' o', rec h m o = (h', m', o', true) /\ post h0 h m h' m' /\ memo_get m' o = Some o'.

Lemma copy_pvs_iso : forall h0 n rec, iso_spec h0 n rec -> forall l h m,
  copy_inv h0 h m -> (forall q, In (PRef q) l -> In q (dom h0)) -> length h0 < n + length m ->
  exists h2 m2 l', copy_pvs rec l h m = (h2, m2, l', true) /\ post h0 h m h2 m2 /\ Forall2 (renrel m2) l l'.
Proof.
  intros h0 n rec R l. induction l as [|[a|q] r IH]; intros h m I D L.
  - exists h, m, []. split; [reflexivity|]. split; [apply post_refl, I | constructor].
  - destruct (IH h m I (fun q Iq => D q (or_intror Iq)) L) as (h2 & m2 & r' & E & P & F).
    exists h2, m2, (PAtom a :: r'). simpl. rewrite E. split; [reflexivity|]. split; [exact P|]. constructor; [constructor | exact F].
  - destruct (R h m q I (D q (or_introl eq_refl)) L) as (h1 & m1 & q' & E1 & P1 & G1).
    assert (L1 : length h0 < n + length m1) by (pose proof (p_len _ _ _ _ _ P1); lia).
    destruct (IH h1 m1 (p_inv _ _ _ _ _ P1) (fun q0 Iq => D q0 (or_intror Iq)) L1) as (h2 & m2 & r' & E2 & P2 & F2).
    exists h2, m2, (PRef q' :: r'). simpl. rewrite E1, E2. split; [reflexivity|]. split; [exact (post_trans _ _ _ _ _ _ _ P1 P2)|].
    constructor; [constructor; apply (p_ext _ _ _ _ _ P2), G1 | exact F2].
Qed.

Lemma dc_iso : forall h0, wf_heap h0 -> forall fuel, iso_spec h0 fuel (dc fuel).
Proof.
  intros h0 W fuel. induction fuel as [|f IH]; intros h m o I Do L.
  { exfalso. pose proof (copy_inv_length h0 h m I). lia. }
  cbn [dc]. destruct (memo_get m o) as [v|] eqn:EM.
  { exists h, m, v. split; [reflexivity|]. split; [apply post_refl, I | exact EM]. }
  destruct (dom_lookup h0 o Do) as [ob L0]. assert (EL : lookup h o = Some ob) by (rewrite (i_unch _ _ _ I o Do); exact L0).
  rewrite EL. cbv zeta. destruct (copy_inv_push h0 h m o ob I Do L0 EM) as [Ia Xa]. pose proof (fresh_not_in h) as Nh. set (o1 := fresh h) in *.
  pose proof (i_keys _ _ _ I) as Ik.
  assert (Dr : forall q, In (PRef q) (obj_pvs ob) -> In q (dom h0)).
  { intros q Iq. eapply W; [exact L0 | apply pvs_refs; exact Iq]. }
  destruct (copy_pvs_iso h0 f (dc f) IH (obj_pvs ob) _ _ Ia Dr) as (h2 & m2 & l' & EC & [I2 X2 L2 U2 N2 D2] & F2);
    [simpl; lia|].
  rewrite EC. exists (set_obj h2 o1 (rebuild ob l')), m2, o1. split; [reflexivity|].
  assert (G2 : memo_get m2 o = Some o1) by (apply X2; rewrite memo_get_cons, Nat.eqb_refl; reflexivity).
  destruct (copy_inv_finish h0 h2 m2 o o1 ob l' I2 G2 L0 F2) as (I3 & Done & Keep).
  assert (No : forall k v, memo_get m k = Some v -> k <> o) by (intros k v A ->; congruence).
  split; [|exact G2]. constructor.
  - exact I3.
  - eapply mext_trans; eauto.
  - simpl in L2. lia.
  - intros k v A. rewrite (Keep k v (X2 k v (Xa k v A)) (No k v A)), (U2 k v (Xa k v A)).
    apply lookup_set_other. intros <-. apply Nh, (Ik k o1 A).
  - intros k v A B. destruct (Nat.eq_dec k o) as [->|Nk].
    + rewrite G2 in A. inversion A; subst. exact Done.
    + assert (Ba : memo_get ((o, o1) :: m) k = None).
      { rewrite memo_get_cons. destruct (Nat.eqb o k) eqn:Eq; [apply Nat.eqb_eq in Eq; congruence | exact B]. }
      exact (copy_mono _ _ _ _ _ _ _ (mext_refl m2) (Keep k v A Nk) (N2 k v A Ba)).
  - intros p Ip. apply dom_set. right. apply D2. apply dom_set. auto.
Qed.

Lemma deepcopy_exec_inv : forall h r h' r', wf_heap h -> In r (dom h) -> deepcopy_exec h r = (h', r') ->
  exists m, dc (S (length h)) h [] r = (h', m, r', true) /\ copy_inv h h' m /\ memo_get m r = Some r'
    /\ (forall k v, memo_get m k = Some v -> is_copy_of h h' m k v).
Proof.
  intros h r h' r' W D E.
  destruct (dc_iso h W (S (length h)) h [] r (copy_inv_init h) D) as (h1 & m1 & r1 & E1 & [I _ _ _ N _] & G); [simpl; lia|].
  unfold deepcopy_exec in E. rewrite E1 in E. inversion E; subst. exists m1. auto.
Qed.

Theorem deepcopy_exec_iso : forall h r h' r', wf_heap h -> In r (dom h) -> deepcopy_exec h r = (h', r') ->
  exists m,
    memo_get m r = Some r'
    (* every object reachable from the root has a copy: itself with every reference renamed, atoms kept *)
    /\ (forall p, reach h r p -> exists p', memo_get m p = Some p' /\ is_copy_of h h' m p p')
    (* distinct objects have distinct copies; every copy is a new object; the old heap is untouched *)
    /\ (forall k1 k2 v, memo_get m k1 = Some v -> memo_get m k2 = Some v -> k1 = k2)
    /\ (forall k v, memo_get m k = Some v -> ~ In v (dom h) /\ In v (dom h'))
    /\ unchanged h h'.
Proof.
  intros h r h' r' W D E.
  destruct (deepcopy_exec_inv h r h' r' W D E) as (m1 & _ & I & G & All).
  exists m1. split; [exact G|]. split.
  - assert (Cl : forall k p, reach h k p -> forall v, memo_get m1 k = Some v ->
                  exists p', memo_get m1 p = Some p' /\ is_copy_of h h' m1 p p');
      [| intros p R; exact (Cl r p R r' G)].
    intros k p R. induction R as [r0|r0 ob q p L Iq R IH]; intros v Gv.
    + exists v. split; [exact Gv | apply All; exact Gv].
    + destruct (All r0 v Gv) as (ob1 & l' & A1 & A2 & A3). rewrite L in A1. inversion A1; subst ob1.
      destruct (proj1 (Forall2_In _ _ _ A3) _ (refs_pvs ob q Iq)) as (y & _ & Ry). inversion Ry as [|? q' Gq]; subst.
      exact (IH q' Gq).
  - split; [exact (i_inj _ _ _ I)|]. split; [|exact (i_unch _ _ _ I)].
    intros k v A. destruct (i_keys _ _ _ I k v A) as (_ & A2 & A3). auto.
Qed.

Lemma map_snd_combine : forall (A B : Type) (ks : list A) (l : list B), length l = length ks -> map snd (combine ks l) = l.
Proof.
  intros A B ks. induction ks as [|k ks IH]; intros [|x l] H; simpl in *; try reflexivity; try discriminate.
  f_equal. apply IH. lia.
Qed.

Lemma obj_pvs_rebuild : forall ob l, length l = length (obj_pvs ob) -> obj_pvs (rebuild ob l) = l.
Proof.
  intros [l0|d|c a] l H; simpl in *; [reflexivity| |]; apply map_snd_combine; rewrite map_length in *; exact H.
Qed.

(* what a copy refers to is the copy of what its original refers to *)
Lemma copy_refs : forall h h' m k v ob' q', is_copy_of h h' m k v -> lookup h' v = Some ob' -> In q' (refs_of ob') ->
  exists ob q, lookup h k = Some ob /\ In q (refs_of ob) /\ memo_get m q = Some q'.
Proof.
  intros h h' m k v ob' q' (ob & l' & A1 & A2 & A3) L Iq. rewrite L in A2. inversion A2; subst ob'.
  apply refs_pvs in Iq. rewrite obj_pvs_rebuild in Iq by (symmetry; eapply Forall2_length; eauto).
  destruct (proj2 (Forall2_In _ _ _ A3) _ Iq) as (x & Ix & Rx). inversion Rx as [|q ? Gq]; subst.
  exists ob, q. auto using pvs_refs.
Qed.

(* nothing else is in the copy: every object reachable from the new root is the copy of an object reachable from the old one *)
Theorem deepcopy_exec_iso_onto : forall h r h' r', wf_heap h -> In r (dom h) -> deepcopy_exec h r = (h', r') ->
  exists m, memo_get m r = Some r'
    /\ (forall p', reach h' r' p' -> exists p, reach h r p /\ memo_get m p = Some p').
Proof.
  intros h r h' r' W D E.
  destruct (deepcopy_exec_inv h r h' r' W D E) as (m & _ & _ & G & All).
  exists m. split; [exact G|].
  assert (Cl : forall v p', reach h' v p' -> forall k, reach h r k -> memo_get m k = Some v ->
                 exists p, reach h r p /\ memo_get m p = Some p').
  { intros v p' R. induction R as [v0|v0 ob' q' p' L Iq R IH]; intros k Rk Gk.
    - exists k. auto.
    - destruct (copy_refs _ _ _ _ _ _ _ (All k v0 Gk) L Iq) as (ob & q & A1 & Iq0 & Gq).
      apply (IH q); [|exact Gq].
      eapply reach_trans; [exact Rk|]. eapply reach_step; [exact A1 | exact Iq0 | apply reach_here]. }
  intros p' R. exact (Cl r' p' R r (reach_here h r) G).
Qed.

Lemma aget_combine_ren : forall m (d : list (Z * pv)) l' a v,
  Forall2 (renrel m) (map snd d) l' -> aget d a = Some v ->
  exists v', aget (combine (map fst d) l') a = Some v' /\ renrel m v v'.
Proof.
  intros m d. induction d as [|[k x] d IH]; intros l' a v F A; simpl in *; [discriminate|].
  inversion F as [|x0 y l0 l1 R F']; subst. simpl.
  destruct (Z.eqb k a); [inversion A; subst; exists y; auto | apply IH; auto].
Qed.

Lemma copy_getattr : forall h h' m p p' a v, is_copy_of h h' m p p' -> getattr h p a = Some v ->
  exists v', getattr h' p' a = Some v' /\ renrel m v v'.
Proof.
  intros h h' m p p' a v (ob & l' & A1 & A2 & A3) G. unfold getattr in *. rewrite A1 in G. rewrite A2.
  destruct ob as [l|d|c ats]; try discriminate. simpl in *. eapply aget_combine_ren; eauto.
Qed.

Lemma copy_get_list : forall h h' m p p' l, is_copy_of h h' m p p' -> get_list h p = Some l ->
  exists l', get_list h' p' = Some l' /\ Forall2 (renrel m) l l'.
Proof.
  intros h h' m p p' l (ob & l' & A1 & A2 & A3) G. unfold get_list in *. rewrite A1 in G. rewrite A2.
  destruct ob as [l0|d|c ats]; try discriminate. inversion G; subst. simpl in *. exists l'. auto.
Qed.

Lemma forall2_nth_ref : forall m l l' i q, Forall2 (renrel m) l l' -> nth_error l i = Some (PRef q) ->
  exists q', memo_get m q = Some q' /\ nth_error l' i = Some (PRef q').
Proof.
  intros m l l' i q F. revert i. induction F as [|a b l l' R F IH]; intros [|i] N; simpl in *; try discriminate.
  - inversion N; subst. inversion R; subst. eauto.
  - apply IH; auto.
Qed.

(* C09 at heap level: a library-level deep copy keeps the link from a duplicate-key wrapper to the first block INSIDE the
   copy.  If in the library `lib` the i-th block is the wrapper w, the j-th block is b, and w.previous_block is b, then in
   the copy the i-th block is w', the j-th block is b' and w'.previous_block is b' - the member of the copied block list,
   not a private copy and not the original. *)
Theorem deepcopy_keeps_previous_block_live : forall h lib h' lib' bl xs i j w b,
  wf_heap h -> In lib (dom h) -> deepcopy_exec h lib = (h', lib') ->
  attr_list h lib A_blocks = Some (bl, xs) -> nth_error xs i = Some (PRef w) -> nth_error xs j = Some (PRef b) ->
  getattr h w A_previous_block = Some (PRef b) ->
  exists bl' xs' w' b',
    attr_list h' lib' A_blocks = Some (bl', xs') /\ nth_error xs' i = Some (PRef w') /\ nth_error xs' j = Some (PRef b')
    /\ getattr h' w' A_previous_block = Some (PRef b')
    /\ ~ In b' (dom h) /\ ~ In w' (dom h).
Proof.
  intros h lib h' lib' bl xs i j w b W D E AL Ni Nj GP.
  destruct (deepcopy_exec_inv h lib h' lib' W D E) as (m & _ & I & G & All).
  unfold attr_list in AL.
  destruct (getattr h lib A_blocks) as [vb|] eqn:GB; [|discriminate]. simpl in AL.
  destruct vb as [a|bl0]; [discriminate|]. simpl in AL.
  destruct (get_list h bl0) as [xs0|] eqn:GL; [|discriminate]. inversion AL; subst bl0 xs0. clear AL.
  (* the copies of the library, of its block list and of the wrapper, each read through the memo *)
  destruct (copy_getattr _ _ _ _ _ _ _ (All lib lib' G) GB) as (vb' & GB' & Rb). inversion Rb as [|q q' Mq]; subst.
  destruct (copy_get_list _ _ _ _ _ _ (All bl q' Mq) GL) as (xs' & GL' & F).
  destruct (forall2_nth_ref m xs xs' i w F Ni) as (w' & Mw & Ni').
  destruct (forall2_nth_ref m xs xs' j b F Nj) as (b' & Mb & Nj').
  destruct (copy_getattr _ _ _ _ _ _ _ (All w w' Mw) GP) as (vp' & GP' & Rp). inversion Rp as [|q0 q0' Mq0]; subst.
  rewrite Mb in Mq0. inversion Mq0; subst q0'.
  exists q', xs', w', b'. split.
  - unfold attr_list. rewrite GB'. simpl. rewrite GL'. reflexivity.
  - split; [exact Ni'|]. split; [exact Nj'|]. split; [exact GP'|].
    split; [apply (i_keys _ _ _ I b b' Mb) | apply (i_keys _ _ _ I w w' Mw)].
Qed.

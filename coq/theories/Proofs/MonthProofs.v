(* Proofs for C15.  The three month middlewares are studied once, over abstract str.lower / int oracles
   (Model/MonthGen.v, hypotheses of Spec/C15Gen.v); the ASCII model of Model/Month.v is the instance
   lower / int_of_decimal of that development.  The month table is the generated one; what is needed of it is
   checked by computation, row by row, at every build (rows_checked). *)
From Coq Require Import List NArith ZArith Bool Lia.
From BP Require Import Base.Chars Model.Blocks Gen.Constants Model.Month Model.MonthGen Spec.C15 Spec.C15Gen.
Import ListNotations.
Local Open Scope Z_scope.

Lemma table_ok_true : table_ok = true.
Proof. vm_compute. reflexivity. Qed.

Lemma str_isdecimal_lower s : str_isdecimal s = true -> lower s = s.
Proof. destruct s; [discriminate|]. intros H. apply lower_decimal, H. Qed.

(* row i of the tables is month i+1 *)
Lemma row_index i : Z.to_nat (Z.of_nat i + 1 - 1) = i.
Proof. lia. Qed.

Lemma in_range_spec z : in_range z = true <-> 1 <= z <= 12.
Proof. unfold in_range. rewrite andb_true_iff, !Z.leb_le. tauto. Qed.

(* ---- the table, row by row.  The code uses the lowered string in ways that are only safe because membership in
   one of the tables pins the string down to a concrete row:
        `_MONTH_ABBREV_TO_FULL[v_lower[:3]]`  after  `v_lower in _LOWERCASE_FULL`        (long)
        `v_lower[:3]` returned as the abbreviation after `v_lower in _LOWERCASE_FULL`     (abbreviation)
        `_MONTH_ABBREV.index(v_lower[:3])`    after  `v_lower in _MONTH_ABBREV`           (int)
   Row i: the abbreviation and the lower-cased full name are found at i in their lists (the full name possibly also at
   i among the abbreviations: "may"), both are letters only, the abbreviation is its own [:3] and that of the full name. *)
Definition row_check (i : nat) : bool :=
  let a := nth i month_abbrev [] in
  let f := nth i lowercase_full [] in
  match index_of a month_abbrev, index_of f lowercase_full with
  | Some j, Some j' => (j =? i)%nat && (j' =? i)%nat
  | _, _ => false
  end
  && match index_of f month_abbrev with Some j => (j =? i)%nat | None => true end
  && str_eqb (firstn3 a) a && str_eqb (firstn3 f) a && str_eqb (lower a) a
  && negb (str_isdecimal a) && negb (str_isdecimal f).

Lemma rows_checked : forallb row_check (seq 0 12) = true.
Proof. vm_compute. reflexivity. Qed.
Lemma abbrev_length : length month_abbrev = 12%nat.
Proof. reflexivity. Qed.
Lemma full_length : length month_full = 12%nat.
Proof. reflexivity. Qed.
Lemma lowercase_full_length : length lowercase_full = 12%nat.
Proof. reflexivity. Qed.

Lemma row_facts i : (i < 12)%nat ->
  let a := nth i month_abbrev [] in
  let f := nth i lowercase_full [] in
  index_of a month_abbrev = Some i /\ index_of f lowercase_full = Some i
  /\ (index_of f month_abbrev = None \/ index_of f month_abbrev = Some i)
  /\ firstn3 a = a /\ firstn3 f = a /\ lower a = a /\ str_isdecimal a = false /\ str_isdecimal f = false.
Proof.
  intros B a f. pose proof rows_checked as R. rewrite forallb_forall in R.
  specialize (R i ltac:(apply in_seq; lia)). unfold row_check in R. fold a f in R.
  repeat (apply andb_true_iff in R as [R ?]).
  destruct (index_of a month_abbrev) as [j|]; [|discriminate]. destruct (index_of f lowercase_full) as [j'|]; [|discriminate].
  apply andb_true_iff in R as [R R']. apply Nat.eqb_eq in R, R'. subst j j'.
  repeat split; try (apply str_eqb_eq; assumption); try (apply negb_true_iff; assumption).
  destruct (index_of f month_abbrev) as [j|]; [right; f_equal; apply Nat.eqb_eq; assumption | left; reflexivity].
Qed.

Lemma lowercase_full_nth i : nth i lowercase_full [] = lower (nth i month_full []).
Proof. unfold lowercase_full. rewrite <- (map_nth lower). reflexivity. Qed.

(* a string found in a table is a row *)
Lemma abbrev_row lo i : index_of lo month_abbrev = Some i -> (i < 12)%nat /\ lo = nth i month_abbrev [].
Proof. intros H. apply index_of_Some in H as (A & B & _). rewrite abbrev_length in B. auto. Qed.
Lemma full_row lo i : index_of lo lowercase_full = Some i -> (i < 12)%nat /\ lo = nth i lowercase_full [].
Proof. intros H. apply index_of_Some in H as (A & B & _). rewrite lowercase_full_length in B. auto. Qed.

(* int middleware: v_lower in _MONTH_ABBREV  ==>  v_lower[:3] is v_lower, so .index(v_lower[:3]) finds its row *)
Lemma abbrev_member lo : mem_str lo month_abbrev = true -> firstn3 lo = lo /\ str_isdecimal lo = false.
Proof.
  intros M. apply mem_index in M as [i I]. apply abbrev_row in I as [B ->].
  destruct (row_facts i B) as (_ & _ & _ & P & _ & _ & D & _). auto.
Qed.
(* long / abbreviation middlewares: v_lower is the i-th lower-cased full name  ==>  v_lower[:3] is the i-th abbreviation,
   so the dict lookup succeeds and yields the i-th full name *)
Lemma full_member lo i : index_of lo lowercase_full = Some i ->
  firstn3 lo = nth i month_abbrev [] /\ index_of (firstn3 lo) month_abbrev = Some i
  /\ abbrev_to_full (firstn3 lo) = Some (nth i month_full []) /\ str_isdecimal lo = false.
Proof.
  intros I. apply full_row in I as [B ->]. destruct (row_facts i B) as (A & _ & _ & _ & P & _ & _ & D).
  unfold abbrev_to_full. rewrite P, A. auto.
Qed.

(* ---- the three canonical outputs for month m *)
Definition canon (k : mkind) (m : Z) : value :=
  match k with MInt => VInt m | MAbbrev => VStr (abbrev_of m) | MLong => VStr (full_of m) end.

Section GenProofs.
  Variable lowerU : str -> str.
  Variable intU : str -> option Z.
  (* the other oracle hypothesis, [lower_keeps_decimal], comes after [never_raises_g], which must not depend on it *)
  Hypothesis Hrows : lower_rows_ok lowerU.

  Notation rg := (resolve_g lowerU intU).
  Notation spells' := (spells_g lowerU intU).
  Notation is_spelling' := (is_month_spelling_g lowerU intU).

  (* _LOWERCASE_FULL computed with the real lower() is the table the ASCII model uses *)
  Lemma lcf_eq : lowercase_full_g lowerU = lowercase_full.
  Proof. unfold lowercase_full_g, lowercase_full. apply map_ext_in. intros r Hr. apply Hrows. right; exact Hr. Qed.

  Lemma lowerU_abbrev_nth i : (i < 12)%nat -> lowerU (nth i month_abbrev []) = nth i month_abbrev [].
  Proof.
    intros B. destruct (row_facts i B) as (_ & _ & _ & _ & _ & L & _).
    rewrite Hrows by (left; apply nth_In; rewrite abbrev_length; exact B). exact L.
  Qed.
  Lemma lowerU_full_nth i : (i < 12)%nat -> lowerU (nth i month_full []) = nth i lowercase_full [].
  Proof.
    intros B. rewrite lowercase_full_nth. apply Hrows. right. apply nth_In. rewrite full_length. exact B.
  Qed.

  (* ---- no exception site is reachable: for EVERY value, every int oracle, and every lower() that is right on the
     24 table rows.  Nothing else about lower() is used (not even lower_keeps_decimal): once the lowered string is
     a member of a table it is that row, and the [:3] of a row is a key / an element. *)
  Lemma never_raises_g k v : rg k v <> GRaise.
  Proof.
    destruct k; cbn [resolve_g]; unfold resolve_int_g, resolve_abbrev_g, resolve_long_g, int_branch_g;
      destruct v as [s|z| | | |b| | |]; try discriminate; cbv zeta.
    - (* int: list.index *)
      destruct (mem_str (lowerU s) month_abbrev) eqn:M.
      + destruct (abbrev_member _ M) as [-> _]. destruct (mem_index _ _ M) as [i ->]. discriminate.
      + destruct (index_of (lowerU s) (lowercase_full_g lowerU)); [discriminate|]. destruct (as_int_g intU s); discriminate.
    - (* abbreviation: no site *)
      destruct (as_int_g intU s); [discriminate|].
      destruct (mem_str (lowerU s) (lowercase_full_g lowerU)); [discriminate|].
      destruct (mem_str (lowerU s) month_abbrev && negb (str_eqb (lowerU s) s)); discriminate.
    - (* long: dict lookup *)
      destruct (as_int_g intU s); [discriminate|].
      destruct (abbrev_to_full (lowerU s)); [discriminate|].
      rewrite lcf_eq. destruct (mem_str (lowerU s) lowercase_full) eqn:M; [|discriminate].
      destruct (mem_index _ _ M) as [i I]. destruct (full_member _ _ I) as (_ & _ & -> & _). discriminate.
  Qed.

  Hypothesis Hdec : lower_keeps_decimal lowerU.

  (* a decimal string does not lower-case to a table row: this is what makes the int middleware (which looks the
     lowered string up BEFORE testing isdecimal) agree with the other two (which test isdecimal first), and what
     sends a decimal string that int() refuses through the string branch unchanged *)
  Lemma lowered_not_decimal s : str_isdecimal (lowerU s) = false -> str_isdecimal s = false.
  Proof. intros H. destruct (str_isdecimal s) eqn:D; [|reflexivity]. rewrite (Hdec s D) in H. discriminate. Qed.

  Lemma lowered_decimal_not_row s : str_isdecimal s = true ->
    mem_str (lowerU s) month_abbrev = false /\ mem_str (lowerU s) lowercase_full = false.
  Proof.
    intros D. split.
    - destruct (mem_str (lowerU s) month_abbrev) eqn:M; [|reflexivity].
      destruct (abbrev_member _ M) as [_ N]. apply lowered_not_decimal in N. congruence.
    - destruct (mem_str (lowerU s) lowercase_full) eqn:M; [|reflexivity].
      destruct (mem_index _ _ M) as [i I]. destruct (full_member _ _ I) as (_ & _ & _ & N).
      apply lowered_not_decimal in N. congruence.
  Qed.

  (* ---- the month a value spells, computably *)
  Definition month_of_g (v : value) : option Z :=
    match v with
    | VInt z => if in_range z then Some z else None
    | VStr s =>
        if str_isdecimal s then
          match intU s with Some z => if in_range z then Some z else None | None => None end
        else match index_of (lowerU s) month_abbrev with
             | Some i => Some (Z.of_nat i + 1)
             | None => match index_of (lowerU s) lowercase_full with Some i => Some (Z.of_nat i + 1) | None => None end
             end
    | _ => None
    end.

  (* a string that lowers to row i of either table spells month i+1 *)
  Lemma month_of_g_abbrev s i : (i < 12)%nat -> lowerU s = nth i month_abbrev [] -> month_of_g (VStr s) = Some (Z.of_nat i + 1).
  Proof.
    intros B L. destruct (row_facts i B) as (A & _ & _ & _ & _ & _ & D & _). rewrite <- L in D.
    unfold month_of_g. rewrite (lowered_not_decimal s D), L, A. reflexivity.
  Qed.
  Lemma month_of_g_full s i : (i < 12)%nat -> lowerU s = nth i lowercase_full [] -> month_of_g (VStr s) = Some (Z.of_nat i + 1).
  Proof.
    intros B L. destruct (row_facts i B) as (_ & F & A & _ & _ & _ & _ & D). rewrite <- L in D.
    unfold month_of_g. rewrite (lowered_not_decimal s D), L, F. destruct A as [-> | ->]; reflexivity.
  Qed.

  Lemma month_of_g_spells m v : 1 <= m <= 12 -> spells' m v -> month_of_g v = Some m.
  Proof.
    intros Hm [H|[(s & Hv & Hd & Hp)|[(s & Hv & Hl)|(s & Hv & Hl)]]]; subst v.
    - unfold month_of_g. apply in_range_spec in Hm. rewrite Hm. reflexivity.
    - unfold month_of_g. rewrite Hd, Hp. apply in_range_spec in Hm. rewrite Hm. reflexivity.
    - rewrite (month_of_g_abbrev s (Z.to_nat (m - 1))) by (try exact Hl; lia). f_equal. lia.
    - unfold full_of in Hl. rewrite lowerU_full_nth in Hl by lia.
      rewrite (month_of_g_full s (Z.to_nat (m - 1))) by (try exact Hl; lia). f_equal. lia.
  Qed.

  Lemma month_of_g_sound v m : month_of_g v = Some m -> 1 <= m <= 12 /\ spells' m v.
  Proof.
    unfold month_of_g. destruct v as [s|z| | | | | | |]; try discriminate.
    - destruct (str_isdecimal s) eqn:D.
      + destruct (intU s) as [z|] eqn:P; [|discriminate].
        destruct (in_range z) eqn:R; [|discriminate]. intros H; inversion H; subst.
        apply in_range_spec in R. split; [exact R|]. right; left. exists s. repeat split; auto.
      + destruct (index_of (lowerU s) month_abbrev) as [i|] eqn:I.
        * intros H; inversion H; subst. apply abbrev_row in I as [B A].
          split; [lia|]. right; right; left. exists s. split; [reflexivity|].
          unfold abbrev_of. rewrite row_index. exact A.
        * destruct (index_of (lowerU s) lowercase_full) as [i|] eqn:J; [|discriminate].
          intros H; inversion H; subst. apply full_row in J as [B A].
          split; [lia|]. right; right; right. exists s. split; [reflexivity|].
          unfold full_of. rewrite row_index.
          rewrite (lowerU_full_nth i B). exact A.
    - destruct (in_range z) eqn:R; [|discriminate]. intros H; inversion H; subst.
      apply in_range_spec in R. split; [exact R|]. left; reflexivity.
  Qed.

  Lemma month_of_g_None v : month_of_g v = None -> ~ is_spelling' v.
  Proof. intros H (m & Hm & Hs). rewrite (month_of_g_spells m v Hm Hs) in H. discriminate. Qed.

  Lemma not_spelling_None v : ~ is_spelling' v -> month_of_g v = None.
  Proof.
    intros Hn. destruct (month_of_g v) as [m|] eqn:E; [|reflexivity]. exfalso. apply Hn.
    destruct (month_of_g_sound v m E) as [Hm Hs]. exists m. split; assumption.
  Qed.

  (* ---- what the three functions do: a spelling of month m becomes the middleware's canonical form of m, any other
     value (True excepted: isinstance(True, int)) is returned as it is; a decimal string that int() refuses is one of those *)
  Theorem resolve_g_spec k v : v <> VBool true ->
    rg k v = GVal (match month_of_g v with Some m => canon k m | None => v end).
  Proof.
    intros Hb. unfold month_of_g. destruct v as [s|z| | | |b| | |]; try (destruct k; reflexivity).
    - destruct (str_isdecimal s) eqn:D.
      + (* decimal string of any script: no row, so all three go by the integer, if there is one *)
        destruct (lowered_decimal_not_row s D) as (M1 & M2).
        pose proof (not_mem_index _ _ M1) as I1. pose proof (not_mem_index _ _ M2) as I2.
        destruct k; cbn [resolve_g canon]; unfold resolve_int_g, resolve_abbrev_g, resolve_long_g, int_branch_g, as_int_g, abbrev_to_full;
          rewrite ?lcf_eq, ?M1, ?M2, ?I1, ?I2, D; destruct (intU s) as [z|]; try reflexivity; destruct (in_range z); reflexivity.
      + destruct (index_of (lowerU s) month_abbrev) as [i|] eqn:I.
        * (* an abbreviation: it is its own [:3], and the key of the full name *)
          destruct (index_of_Some _ _ _ I) as (_ & _ & M).
          destruct (abbrev_member _ M) as [P _]. apply abbrev_row in I as E; destruct E as [_ E].
          destruct k; cbn [resolve_g canon]; unfold resolve_int_g, resolve_abbrev_g, resolve_long_g, as_int_g, abbrev_of, full_of;
            rewrite ?D; cbv zeta; rewrite ?row_index.
          -- rewrite M, P, I. reflexivity.
          -- rewrite M, <- E.
             destruct (mem_str (lowerU s) (lowercase_full_g lowerU)); [rewrite P; reflexivity|].
             destruct (str_eqb (lowerU s) s) eqn:Q; [apply str_eqb_eq in Q; rewrite Q|]; reflexivity.
          -- unfold abbrev_to_full. rewrite I. reflexivity.
        * pose proof (index_of_None _ _ I) as M'.
          destruct (index_of (lowerU s) lowercase_full) as [i|] eqn:J.
          -- (* a full name that is no abbreviation: its [:3] is the abbreviation of the same row *)
             destruct (index_of_Some _ _ _ J) as (_ & _ & M). destruct (full_member _ _ J) as (P & _ & K & _).
             destruct k; cbn [resolve_g canon]; unfold resolve_int_g, resolve_abbrev_g, resolve_long_g, as_int_g, abbrev_of, full_of;
               rewrite ?lcf_eq, ?D; cbv zeta; rewrite ?row_index.
             ++ rewrite M', J. reflexivity.
             ++ rewrite M, P. reflexivity.
             ++ unfold abbrev_to_full at 1. rewrite I, M, K.
                destruct (str_eqb s (nth i month_full [])) eqn:Q; [apply str_eqb_eq in Q; rewrite Q|]; reflexivity.
          -- (* no row at all *)
             pose proof (index_of_None _ _ J) as M2.
             destruct k; cbn [resolve_g]; unfold resolve_int_g, resolve_abbrev_g, resolve_long_g, as_int_g, abbrev_to_full;
               rewrite ?lcf_eq; cbv zeta; rewrite ?D, ?I, ?J, ?M', ?M2, ?D; reflexivity.
    - destruct k; cbn [resolve_g canon]; unfold resolve_int_g, resolve_abbrev_g, resolve_long_g, int_branch_g, abbrev_of, full_of, nth_str;
        destruct (in_range z); reflexivity.
    - destruct b; [contradiction Hb; reflexivity | destruct k; reflexivity].
  Qed.

  Lemma resolve_spelled_g k v m : month_of_g v = Some m -> rg k v = GVal (canon k m).
  Proof. intros H. rewrite resolve_g_spec, H; [reflexivity | intros ->; discriminate H]. Qed.

  Lemma resolve_other_g k v : month_of_g v = None -> v <> VBool true -> rg k v = GVal v.
  Proof. intros H Hb. rewrite resolve_g_spec, H by exact Hb. reflexivity. Qed.

  (* ---- the three canonical outputs are themselves spellings of the same month *)
  Lemma canon_spells_g k m : 1 <= m <= 12 -> month_of_g (canon k m) = Some m.
  Proof.
    intros Hm. assert (Z.to_nat (m - 1) < 12)%nat as B by lia. destruct k; cbn [canon].
    - unfold month_of_g. apply in_range_spec in Hm. rewrite Hm. reflexivity.
    - unfold abbrev_of. rewrite (month_of_g_abbrev _ _ B (lowerU_abbrev_nth _ B)). f_equal. lia.
    - unfold full_of. rewrite (month_of_g_full _ _ B (lowerU_full_nth _ B)). f_equal. lia.
  Qed.

  (* ---- the property, function level, for every value *)
  Lemma spellings_resolve_g m v : 1 <= m <= 12 -> spells' m v ->
    rg MInt v = GVal (VInt m) /\ rg MAbbrev v = GVal (VStr (abbrev_of m)) /\ rg MLong v = GVal (VStr (full_of m)).
  Proof.
    intros Hm Hs. pose proof (month_of_g_spells m v Hm Hs) as H.
    repeat split; [apply (resolve_spelled_g MInt) | apply (resolve_spelled_g MAbbrev) | apply (resolve_spelled_g MLong)]; exact H.
  Qed.

  Lemma others_unchanged_g k v : ~ is_spelling' v -> v <> VBool true -> rg k v = GVal v.
  Proof. intros Hn Hb. apply resolve_other_g; [apply not_spelling_None, Hn | exact Hb]. Qed.

  Lemma compose_g f g v v1 : v <> VBool true -> rg f v = GVal v1 -> rg g v1 = rg g v.
  Proof.
    intros Hb H1. destruct (month_of_g v) as [m|] eqn:E.
    - destruct (month_of_g_sound v m E) as [Hm _].
      rewrite (resolve_spelled_g f v m E) in H1. inversion H1; subst v1.
      rewrite (resolve_spelled_g g _ m (canon_spells_g f m Hm)). rewrite (resolve_spelled_g g v m E). reflexivity.
    - rewrite (resolve_other_g f v E Hb) in H1. inversion H1; subst. reflexivity.
  Qed.
End GenProofs.

Lemma ascii_instance_ok : oracles_ok lower.
Proof.
  split.
  - intros r _. reflexivity.
  - intros s D. rewrite (str_isdecimal_lower s D). exact D.
Qed.

(* the two models give the same answer except where the ASCII one has none (MSkip): a non-ASCII decimal string, which
   py_int cannot read and which the generalised model at this instance treats as a string int() refuses *)
Lemma resolve_instance k v :
  resolve k v = to_mres (resolve_g lower int_of_decimal k v) \/ (resolve k v = MSkip /\ ~ in_domain v).
Proof.
  assert (forall s, str_isdecimal s = true -> int_of_decimal s = None -> ~ in_domain (VStr s)) as N.
  { intros s D P Hd. unfold int_of_decimal in P. destruct (py_int s) eqn:Q; [discriminate|]. exact (Hd D Q). }
  destruct k; cbn [resolve resolve_g]; unfold resolve_int, resolve_abbrev, resolve_long,
    resolve_int_g, resolve_abbrev_g, resolve_long_g, int_branch_g, as_int_g;
    change (lowercase_full_g lower) with lowercase_full;
    destruct v as [s|z| | | |b| | |]; try (left; reflexivity); cbv zeta.
  - destruct (mem_str (lower s) month_abbrev); [left; destruct (index_of (firstn3 (lower s)) month_abbrev); reflexivity|].
    destruct (index_of (lower s) lowercase_full); [left; reflexivity|].
    destruct (str_isdecimal s) eqn:D; [|left; reflexivity].
    destruct (int_of_decimal s) eqn:P; [left; reflexivity | right; auto].
  - destruct (str_isdecimal s) eqn:D.
    + destruct (int_of_decimal s) eqn:P; [left; reflexivity | right; auto].
    + left. destruct (mem_str (lower s) lowercase_full); [reflexivity|].
      destruct (mem_str (lower s) month_abbrev && negb (str_eqb (lower s) s)); reflexivity.
  - destruct (str_isdecimal s) eqn:D.
    + destruct (int_of_decimal s) eqn:P; [left; reflexivity | right; auto].
    + left. destruct (abbrev_to_full (lower s)); [reflexivity|].
      destruct (mem_str (lower s) lowercase_full); [|reflexivity].
      destruct (abbrev_to_full (firstn3 (lower s))); reflexivity.
Qed.

Lemma resolve_in_domain k v : in_domain v -> resolve k v = to_mres (resolve_g lower int_of_decimal k v).
Proof. intros D. destruct (resolve_instance k v) as [E|[_ N]]; [exact E | contradiction]. Qed.

(* ---- the month a value spells, computably *)
Definition month_of (v : value) : option Z :=
  match v with
  | VInt z => if in_range z then Some z else None
  | VStr s =>
      if str_isdecimal s then
        match int_of_decimal s with Some z => if in_range z then Some z else None | None => None end
      else match index_of (lower s) month_abbrev with
           | Some i => Some (Z.of_nat i + 1)
           | None => match index_of (lower s) lowercase_full with Some i => Some (Z.of_nat i + 1) | None => None end
           end
  | _ => None
  end.

Lemma month_of_instance : month_of = month_of_g lower int_of_decimal.
Proof. reflexivity. Qed.

Lemma spells_instance m v : 1 <= m <= 12 -> spells m v <-> spells_g lower int_of_decimal m v.
Proof.
  intros Hm. unfold spells, spells_g, int_of_decimal.
  assert (forall s, py_int s = Some (Z.to_N m) <-> match py_int s with Some n => Some (Z.of_N n) | None => None end = Some m) as P.
  { intros s. destruct (py_int s) as [n|]; [|split; discriminate].
    split; intros H; injection H as H; f_equal; lia. }
  split; (intros [H|[(s & Hv & Hd & Hp)|H]]; [left; exact H | right; left; exists s; repeat split; try assumption; apply P; exact Hp | right; right; exact H]).
Qed.

Lemma month_of_spells m v : 1 <= m <= 12 -> spells m v -> month_of v = Some m.
Proof.
  intros Hm Hs. rewrite month_of_instance. apply month_of_g_spells; try apply ascii_instance_ok; [exact Hm|].
  apply spells_instance; assumption.
Qed.

Lemma month_of_sound v m : month_of v = Some m -> 1 <= m <= 12 /\ spells m v.
Proof.
  intros H. rewrite month_of_instance in H.
  destruct (month_of_g_sound lower int_of_decimal (proj1 ascii_instance_ok) v m H) as [Hm Hs].
  split; [exact Hm | apply spells_instance; assumption].
Qed.

Lemma month_of_None v : month_of v = None -> ~ is_month_spelling v.
Proof.
  intros H (m & Hm & Hs). rewrite (month_of_spells m v Hm Hs) in H. discriminate.
Qed.

Lemma month_of_in_domain v m : month_of v = Some m -> in_domain v.
Proof.
  destruct v as [s|z| | | | | | |]; try (intros; exact I). cbn [month_of in_domain]. intros H D. rewrite D in H.
  unfold int_of_decimal in H. destruct (py_int s); [discriminate | discriminate H].
Qed.

(* ---- what the three functions do with a spelling of month m, and with any other value *)
Lemma resolve_spelled k v m : month_of v = Some m -> resolve k v = MVal (canon k m).
Proof.
  intros H. rewrite (resolve_in_domain k v (month_of_in_domain v m H)).
  destruct ascii_instance_ok as [H1 H2]. rewrite (resolve_spelled_g lower int_of_decimal H1 H2 k v m H). reflexivity.
Qed.

(* True is excluded: isinstance(True, int) holds, so the long / abbreviation middlewares read it as month 1 although it
   is not a spelling (resolve_bool_true below) *)
Lemma resolve_other k v : month_of v = None -> in_domain v -> v <> VBool true -> resolve k v = MVal v.
Proof.
  intros H D Hb. rewrite (resolve_in_domain k v D).
  destruct ascii_instance_ok as [H1 H2]. rewrite (resolve_other_g lower int_of_decimal H1 H2 k v H Hb). reflexivity.
Qed.

Lemma resolve_bool_true :
  resolve MInt (VBool true) = MVal (VBool true)
  /\ resolve MAbbrev (VBool true) = MVal (VStr (abbrev_of 1))
  /\ resolve MLong (VBool true) = MVal (VStr (full_of 1))
  /\ ~ is_month_spelling (VBool true).
Proof.
  repeat split; try reflexivity.
  intros (m & _ & [H|[(s & H & _)|[(s & H & _)|(s & H & _)]]]); discriminate H.
Qed.

(* ---- the three canonical outputs are themselves spellings of the same month *)
Lemma canon_spells k m : 1 <= m <= 12 -> month_of (canon k m) = Some m.
Proof. destruct ascii_instance_ok as [H1 H2]. exact (canon_spells_g lower int_of_decimal H1 H2 k m). Qed.
Lemma canon_in_domain k m : 1 <= m <= 12 -> in_domain (canon k m).
Proof. intros Hm. exact (month_of_in_domain _ m (canon_spells k m Hm)). Qed.

(* ---- the property, function level *)
Lemma spellings_resolve m v : 1 <= m <= 12 -> spells m v ->
  resolve MInt v = MVal (VInt m) /\ resolve MAbbrev v = MVal (VStr (abbrev_of m)) /\ resolve MLong v = MVal (VStr (full_of m)).
Proof.
  intros Hm Hs. pose proof (month_of_spells m v Hm Hs) as H.
  repeat split; [apply (resolve_spelled MInt) | apply (resolve_spelled MAbbrev) | apply (resolve_spelled MLong)]; exact H.
Qed.

Lemma others_unchanged k v : ~ is_month_spelling v -> in_domain v -> v <> VBool true -> resolve k v = MVal v.
Proof.
  intros Hn Hd Hb. apply resolve_other; [|exact Hd|exact Hb].
  destruct (month_of v) as [m|] eqn:E; [|reflexivity]. exfalso. apply Hn.
  destruct (month_of_sound v m E) as [Hm Hs]. exists m. split; assumption.
Qed.

Lemma compose f g v v1 : in_domain v -> v <> VBool true -> resolve f v = MVal v1 -> resolve g v1 = resolve g v.
Proof.
  intros Hd Hb H1. destruct (month_of v) as [m|] eqn:E.
  - destruct (month_of_sound v m E) as [Hm _].
    rewrite (resolve_spelled f v m E) in H1. inversion H1; subst v1.
    rewrite (resolve_spelled g _ m (canon_spells f m Hm)). rewrite (resolve_spelled g v m E). reflexivity.
  - rewrite (resolve_other f v E Hd Hb) in H1. inversion H1; subst. reflexivity.
Qed.

(* outside the domain the answer is MSkip, inside it is the generalised model's, which never raises *)
Lemma never_raises k v : resolve k v <> MRaise.
Proof.
  destruct (resolve_instance k v) as [E|[E _]]; rewrite E; [|discriminate].
  pose proof (never_raises_g lower int_of_decimal (proj1 ascii_instance_ok) k v) as N.
  destruct (resolve_g lower int_of_decimal k v); [discriminate | contradiction N; reflexivity].
Qed.

(* ---- middleware level: only the value of the month field (and the middleware's own metadata entry) changes *)
Lemma set_last_keys k v fs : map fkey (set_last k v fs) = map fkey fs.
Proof.
  induction fs as [|f fs IH]; simpl; [reflexivity|].
  destruct (has_key k fs); simpl; [f_equal; exact IH|]. destruct (str_eqb (fkey f) k); reflexivity.
Qed.
Lemma set_last_lines k v fs : map fline (set_last k v fs) = map fline fs.
Proof.
  induction fs as [|f fs IH]; simpl; [reflexivity|].
  destruct (has_key k fs); simpl; [f_equal; exact IH|]. destruct (str_eqb (fkey f) k); reflexivity.
Qed.
Lemma last_value_has_key k fs : has_key k fs = match last_value k fs with Some _ => true | None => false end.
Proof.
  induction fs as [|g fs IH]; simpl; [reflexivity|]. rewrite IH.
  destruct (last_value k fs); [apply orb_true_r|]. rewrite orb_false_r. destruct (str_eqb (fkey g) k); reflexivity.
Qed.
Lemma set_last_same k fs v : last_value k fs = Some v -> set_last k v fs = fs.
Proof.
  revert v; induction fs as [|f fs IH]; simpl; intros v; [reflexivity|].
  rewrite (last_value_has_key k fs).
  destruct (last_value k fs) as [w|] eqn:E.
  - intros H; inversion H; subst. rewrite (IH v eq_refl). reflexivity.
  - destruct (str_eqb (fkey f) k); [|discriminate]. intros H; inversion H; subst. destruct f; reflexivity.
Qed.
Lemma set_last_value k v fs : has_key k fs = true -> last_value k (set_last k v fs) = Some v.
Proof.
  induction fs as [|f fs IH]; simpl; [discriminate|].
  destruct (has_key k fs) eqn:Hk; simpl.
  - intros _. rewrite (IH eq_refl). reflexivity.
  - rewrite orb_false_r. intros E. rewrite E. simpl.
    rewrite (last_value_has_key k fs) in Hk. destruct (last_value k fs); [discriminate|]. rewrite E. reflexivity.
Qed.

Lemma month_entry_no_raise k b : month_entry k b <> BRaise.
Proof.
  destruct b; try discriminate. simpl. destruct (last_value month_key fields) as [v|]; [|discriminate].
  pose proof (never_raises k v). destruct (resolve k v); congruence.
Qed.

Lemma month_entry_frame k b b' : month_entry k b = BVal b' ->
  match b with
  | BEntry h t key fs =>
      exists h' fs', b' = BEntry h' t key fs' /\ sl h' = sl h /\ raw h' = raw h
                     /\ map fkey fs' = map fkey fs /\ map fline fs' = map fline fs
                     /\ (last_value month_key fs = None -> b' = b)
  | _ => b' = b
  end.
Proof.
  destruct b; simpl; try (intros H; inversion H; reflexivity).
  destruct (last_value month_key fields) as [v|] eqn:E.
  - destruct (resolve k v) as [v'| |]; try discriminate. intros H; inversion H; subst b'.
    eexists _, _. split; [reflexivity|]. simpl. repeat split; auto using set_last_keys, set_last_lines. discriminate.
  - intros H; inversion H; subst. exists h, fields. repeat split; auto.
Qed.

(* Proofs for C06: the writer model meets the BibtexFormat contract of Spec/C06.v. *)
From Coq Require Import String List NArith ZArith Bool Lia.
From BP Require Import Base.Chars Model.Blocks Gen.Constants Model.Writer Model.FormatSetters Spec.C06 Proofs.Common.
Import ListNotations.

Lemma val_sep_ok : val_sep = eq_sign.
Proof. reflexivity. Qed.
Lemma val_sep_len : List.length val_sep = 3.
Proof. reflexivity. Qed.

(* the padding of _val_intent_string; 3 = len(' = '), see val_sep_len *)
Definition width_of (col : nat) (key : str) : nat := col - List.length key - 3.

Lemma pad_spaces col key : pad col key = spaces (width_of col key).
Proof. unfold pad, spaces, width_of. rewrite val_sep_len. reflexivity. Qed.

Lemma width_of_ok col key : pad_width_ok col key (width_of col key).
Proof. unfold pad_width_ok, width_of. lia. Qed.

Lemma pad_width_unique col key p : pad_width_ok col key p -> p = width_of col key.
Proof. unfold pad_width_ok, width_of. lia. Qed.

Lemma spaces_length n : List.length (spaces n) = n.
Proof. apply repeat_length. Qed.

Lemma value_start_eq indent key p : value_start indent key p = List.length indent + List.length key + p + 3.
Proof. unfold value_start. rewrite !app_length, spaces_length. change (List.length eq_sign) with 3. lia. Qed.

Lemma column_short indent col key :
  List.length key + 3 <= col -> List.length (indent ++ key ++ pad col key ++ val_sep) = List.length indent + col.
Proof.
  intros H. rewrite !app_length, pad_spaces, spaces_length, val_sep_len. unfold width_of. lia.
Qed.
Lemma column_long col key : col <= List.length key + 3 -> pad col key = [].
Proof. intros H. rewrite pad_spaces. unfold width_of. replace (col - List.length key - 3) with 0 by lia. reflexivity. Qed.

Lemma field_line_shape indent key p value comma :
  field_line indent key p value comma
  = indent ++ key ++ spaces p ++ eq_sign ++ value ++ (if comma then [c_comma] else []) ++ [c_nl].
Proof. reflexivity. Qed.

Lemma column_of_short_key indent col key p :
  pad_width_ok col key p -> List.length key + 3 <= col -> value_start indent key p = List.length indent + col.
Proof. intros [H _] Hs. rewrite value_start_eq. specialize (H Hs). lia. Qed.

Lemma column_of_long_key indent col key p :
  pad_width_ok col key p -> col <= List.length key + 3 ->
  p = 0 /\ value_start indent key p = List.length indent + List.length key + 3.
Proof. intros [_ H] Hs. specialize (H Hs). subst. split; [reflexivity|]. rewrite value_start_eq. lia. Qed.

Lemma join_pieces_cons s r : join_pieces (PStr s :: r) = option_map (app s) (join_pieces r).
Proof. reflexivity. Qed.

Lemma join_pieces_app a b :
  join_pieces (a ++ b) = match join_pieces a with Some x => option_map (app x) (join_pieces b) | None => None end.
Proof.
  induction a as [|[s|] a IH].
  - cbn [app join_pieces]. destruct (join_pieces b); reflexivity.
  - rewrite <- app_comm_cons, !join_pieces_cons, IH.
    destruct (join_pieces a) as [x|]; [|reflexivity].
    destruct (join_pieces b) as [y|]; [|reflexivity].
    cbn [option_map]. rewrite app_assoc. reflexivity.
  - reflexivity.
Qed.

(* one piece that is no str makes "".join raise *)
Lemma join_pieces_bad ps : In PBad ps -> join_pieces ps = None.
Proof.
  induction ps as [|[s|] ps IH]; intros Hin; [destruct Hin | | reflexivity].
  destruct Hin as [E|Hin]; [discriminate|]. rewrite join_pieces_cons, (IH Hin). reflexivity.
Qed.

Lemma join_pieces_strs (l : list str) : join_pieces (map PStr l) = Some (concat l).
Proof.
  induction l as [|s l IH]; [reflexivity|].
  cbn [map concat]. rewrite join_pieces_cons, IH. reflexivity.
Qed.

Lemma str_fields_cons f r kvs : str_fields (f :: r) = Some kvs ->
  exists v kvs', fval f = VStr v /\ str_fields r = Some kvs' /\ kvs = (fkey f, v) :: kvs'.
Proof.
  cbn [str_fields]. destruct (fval f) as [v| | | | | | | |]; try discriminate.
  destruct (str_fields r) as [kvs'|]; [|discriminate]. intros [= <-]. eauto.
Qed.

Lemma str_fields_length fs : forall kvs, str_fields fs = Some kvs -> List.length kvs = List.length fs.
Proof.
  induction fs as [|f fs IH]; intros kvs H; [injection H as <-; reflexivity|].
  apply str_fields_cons in H as (v & kvs' & _ & Hr & ->). cbn [List.length]. f_equal. exact (IH _ Hr).
Qed.

Lemma field_pieces_str indent col tr last f v :
  fval f = VStr v ->
  join_pieces (field_pieces indent col tr last f)
  = Some (field_line indent (fkey f) (width_of col (fkey f)) v (tr || negb last)).
Proof.
  intros H. unfold field_pieces, field_line. rewrite H, pad_spaces, val_sep_ok.
  destruct (tr || negb last); reflexivity.
Qed.

(* Spec.C06.field_lines for the fields from position i on, of n fields in all (the comma rule needs both) *)
Definition lines_from (indent : str) (col : nat) (tr : bool) (n i : nat) (kvs : list (str * str)) : str :=
  concat (map (fun ikv => field_line indent (fst (snd ikv)) (width_of col (fst (snd ikv))) (snd (snd ikv))
                                     (comma_rule tr (fst ikv) n))
              (combine (seq i (List.length kvs)) kvs)).

Lemma fields_pieces_str indent col tr :
  forall fs kvs i n, str_fields fs = Some kvs -> n = i + List.length fs ->
  join_pieces (fields_pieces indent col tr fs) = Some (lines_from indent col tr n i kvs).
Proof.
  induction fs as [|f rest IH]; intros kvs i n H Hn; [injection H as <-; reflexivity|].
  apply str_fields_cons in H as (v & kvs' & Hv & Hr & ->).
  cbn [fields_pieces]. rewrite join_pieces_app, (field_pieces_str _ _ _ _ _ v Hv).
  rewrite (IH kvs' (S i) n Hr) by (cbn [List.length] in Hn; lia).
  cbn [option_map]. f_equal. unfold lines_from. cbn [List.length seq combine map concat fst snd].
  f_equal. f_equal. unfold comma_rule. f_equal.
  cbn [List.length] in Hn. destruct rest as [|g rest'].
  - cbn [negb List.length] in *. symmetry. apply Nat.ltb_ge. lia.
  - cbn [negb List.length] in *. symmetry. apply Nat.ltb_lt. lia.
Qed.

Lemma lines_from_spec indent col tr kvs :
  lines_from indent col tr (List.length kvs) 0 kvs = field_lines indent (width_of col) tr kvs.
Proof. reflexivity. Qed.

Lemma comma_rule_spec tr i n : i < n -> (comma_rule tr i n = true <-> tr = true \/ S i <> n).
Proof.
  intros Hi. unfold comma_rule. rewrite orb_true_iff, Nat.ltb_lt. split; intros [H|H]; auto; right; lia.
Qed.

Lemma combine_seq_app {A} (l1 l2 : list A) : forall i,
  combine (seq i (List.length (l1 ++ l2))) (l1 ++ l2)
  = combine (seq i (List.length l1)) l1 ++ combine (seq (i + List.length l1) (List.length l2)) l2.
Proof.
  induction l1 as [|x l1 IH]; intros i; cbn [app List.length seq combine].
  - rewrite Nat.add_0_r. reflexivity.
  - rewrite IH, Nat.add_succ_r. reflexivity.
Qed.

Lemma field_lines_app indent w tr : forall kvs1 kv kvs2,
  exists pre post,
    field_lines indent w tr (kvs1 ++ kv :: kvs2)
    = pre ++ field_line indent (fst kv) (w (fst kv)) (snd kv)
                        (comma_rule tr (List.length kvs1) (List.length (kvs1 ++ kv :: kvs2))) ++ post.
Proof.
  intros kvs1 kv kvs2. unfold field_lines. rewrite combine_seq_app, map_app, concat_app.
  cbn [List.length seq combine map concat fst snd Nat.add]. eexists. eexists. reflexivity.
Qed.

Lemma is_break_boundary c : is_break c = true <-> boundary c.
Proof.
  unfold is_break, boundary. set (k := code c). cbn [In]. split.
  - intros H. repeat (apply orb_prop in H as [H|H]);
      try (apply andb_prop in H as [H1 H2]; apply N.leb_le in H1, H2); try apply N.eqb_eq in H; lia.
  - intros H. repeat (destruct H as [H|H]; [rewrite <- H; reflexivity|]). contradiction.
Qed.

Lemma not_break_not_boundary c : is_break c = false -> ~ boundary c.
Proof. intros H B. apply is_break_boundary in B. congruence. Qed.

(* [cur] holds, reversed, the characters read since the last boundary *)
Lemma splitlines_acc_Lines s : forall cur, no_boundary cur -> Lines (rev cur ++ s) (splitlines_acc s cur).
Proof.
  induction s as [s IH] using list_len_ind. intros cur Hcur.
  pose proof (Forall_rev Hcur : no_boundary (rev cur)) as Hrev.
  destruct s as [|c r]; cbn [splitlines_acc].
  { rewrite app_nil_r. destruct cur as [|c cur]; [constructor|].
    apply L_last; [|exact Hrev]. cbn [rev]. intros E. apply app_eq_nil in E. destruct E; discriminate. }
  destruct (is_break c) eqn:Hb.
  - assert (boundary c) as Bc by (apply is_break_boundary; exact Hb).
    unfold is_cr, is_lf. destruct (code c =? 13)%N eqn:Hcr.
    + apply N.eqb_eq in Hcr. destruct r as [|c2 r'].
      * apply (L_break (rev cur) c [] []); [exact Hrev | exact Bc | | constructor]. intros [_ [c2 [r [E _]]]]. discriminate.
      * destruct (code c2 =? 10)%N eqn:Hlf.
        -- apply N.eqb_eq in Hlf. apply L_crlf; [exact Hrev | exact Hcr | exact Hlf |].
           apply (IH r' ltac:(cbn [List.length]; lia) []). constructor.
        -- apply N.eqb_neq in Hlf. apply L_break; [exact Hrev | exact Bc | |].
           ++ intros [_ [c3 [r3 [E E2]]]]. injection E as <- _. contradiction.
           ++ apply (IH (c2 :: r') ltac:(cbn [List.length]; lia) []). constructor.
    + apply N.eqb_neq in Hcr. apply L_break; [exact Hrev | exact Bc | intros [E _]; contradiction |].
      apply (IH r ltac:(cbn [List.length]; lia) []). constructor.
  - replace (rev cur ++ c :: r) with (rev (c :: cur) ++ r) by (cbn [rev]; rewrite <- app_assoc; reflexivity).
    apply IH; [cbn [List.length]; lia|]. constructor; [apply not_break_not_boundary; exact Hb | exact Hcur].
Qed.

Lemma splitlines_Lines s : Lines s (splitlines s).
Proof. apply (splitlines_acc_Lines s []). constructor. Qed.

(* [expand] computes the relation [Format] of the contract *)
Lemma expand_complete n t o : Format n t o -> expand t n = Some o.
Proof.
  induction 1 as [|c t o H1 H2 _ IH|t o _ IH|t o _ IH|t o _ IH].
  - reflexivity.
  - cbn [expand]. unfold ceq. rewrite (proj2 (N.eqb_neq _ _) H1), (proj2 (N.eqb_neq _ _) H2), IH. reflexivity.
  - cbn [expand]. unfold ceq. rewrite N.eqb_refl, IH. reflexivity.
  - cbn [expand]. unfold ceq. change (c_rb =? c_lb)%N with false. cbn iota. rewrite N.eqb_refl, IH. reflexivity.
  - cbn [expand]. unfold ceq, c_n. rewrite N.eqb_refl. change (asc 110 =? c_lb)%N with false. cbn iota.
    rewrite !N.eqb_refl, IH. reflexivity.
Qed.

Lemma expand_sound n t : forall o, expand t n = Some o -> Format n t o.
Proof.
  induction t as [t IH] using list_len_ind. intros o H.
  (* every recursive call is on a shorter template *)
  assert (R : forall t' g, List.length t' < List.length t -> option_map g (expand t' n) = Some o ->
              exists x, Format n t' x /\ o = g x).
  { intros t' g L E. destruct (expand t' n) as [x|] eqn:Ex; [|discriminate]. injection E as <-.
    exists x. split; [exact (IH t' L x Ex) | reflexivity]. }
  destruct t as [|c t1]; cbn [expand] in H; [injection H as <-; constructor|]. unfold ceq in H.
  destruct (N.eqb_spec c c_lb) as [->|N1].
  - destruct t1 as [|c1 r1]; [discriminate|]. destruct (N.eqb_spec c1 c_lb) as [->|_].
    + destruct (R r1 _ ltac:(simpl; lia) H) as (x & F & ->). apply F_lb, F.
    + destruct (N.eqb_spec c1 c_n) as [->|_]; [|discriminate]. destruct r1 as [|c2 r2]; [discriminate|].
      destruct (N.eqb_spec c2 c_rb) as [->|_]; [|discriminate].
      destruct (R r2 _ ltac:(simpl; lia) H) as (x & F & ->). apply F_n, F.
  - destruct (N.eqb_spec c c_rb) as [->|N2].
    + destruct t1 as [|c1 r1]; [discriminate|]. destruct (N.eqb_spec c1 c_rb) as [->|_]; [|discriminate].
      destruct (R r1 _ ltac:(simpl; lia) H) as (x & F & ->). apply F_rb, F.
    + destruct (R t1 _ ltac:(simpl; lia) H) as (x & F & ->). apply F_lit; assumption.
Qed.

Definition joined (r : res (list piece)) : option str :=
  match r with Val p => join_pieces p | _ => None end.

(* every ParsingFailedBlock subclass is written the same way, from its header *)
Lemma treat_block_failed indent col tr failed b :
  is_failed_class b = true -> treat_block indent col tr failed b = treat_failed failed (bhdr b).
Proof. destruct b; try discriminate; reflexivity. Qed.

Lemma treat_failed_text indent width tr failed b :
  is_failed_class b = true -> raw (bhdr b) <> None -> template_ok failed ->
  exists t, joined (treat_failed failed (bhdr b)) = Some t /\ block_text indent width tr failed b t.
Proof.
  intros Hf Hr Ht. destruct (raw (bhdr b)) as [r|] eqn:Er; [|contradiction].
  destruct (Ht (decimal (List.length (splitlines r)))) as [cmt Hc].
  exists (cmt ++ [c_nl] ++ r ++ [c_nl]). split.
  - unfold treat_failed. rewrite Er. change (dec_of_N (N.of_nat (List.length (splitlines r)))) with (decimal (List.length (splitlines r))).
    rewrite (expand_complete _ _ _ Hc). reflexivity.
  - eapply BT_failed; [exact Hf | exact Er | apply splitlines_Lines | exact Hc].
Qed.

Lemma entry_text indent col tr failed h t k fs kvs :
  str_fields fs = Some kvs ->
  joined (treat_block indent col tr failed (BEntry h t k fs))
  = Some ([c_at] ++ t ++ [c_lb] ++ k ++ [c_comma; c_nl] ++ field_lines indent (width_of col) tr kvs ++ [c_rb; c_nl]).
Proof.
  intros Hs. cbn [treat_block joined app]. rewrite !join_pieces_cons, join_pieces_app.
  rewrite (fields_pieces_str indent col tr fs kvs 0 (List.length fs) Hs eq_refl).
  rewrite <- (str_fields_length _ _ Hs), lines_from_spec. reflexivity.
Qed.

Lemma treat_block_text indent col tr failed b :
  writable b -> (is_failed_class b = true -> template_ok failed) ->
  exists t, joined (treat_block indent col tr failed b) = Some t /\ block_text indent (width_of col) tr failed b t.
Proof.
  intros Hw Ht. destruct (is_failed_class b) eqn:Hf.
  { rewrite (treat_block_failed _ _ _ _ b Hf).
    apply treat_failed_text; [exact Hf | destruct b; try discriminate; exact Hw | exact (Ht eq_refl)]. }
  destruct b as [h t k fs|h k v|h v|h c|h c| | | |]; try discriminate; cbn [writable] in Hw.
  - destruct (str_fields fs) as [kvs|] eqn:Hs; [|contradiction].
    eexists. split; [apply (entry_text _ _ _ _ h t k fs kvs Hs) | apply BT_entry, Hs].
  - destruct v; try discriminate. eexists. split; [|apply BT_string]. reflexivity.
  - eexists. split; [|apply BT_preamble]. cbn [treat_block joined join_pieces option_map]. rewrite app_nil_r. reflexivity.
  - eexists. split; [|apply BT_expl]. reflexivity.
  - eexists. split; [|apply BT_impl]. reflexivity.
Qed.

Lemma write_pieces_text indent col tr failed sep : forall bs,
  Forall writable bs -> (has_failed bs -> template_ok failed) ->
  exists ps texts,
    write_pieces indent col tr failed sep bs = Val ps /\ join_pieces ps = Some (join sep texts)
    /\ Forall2 (block_text indent (width_of col) tr failed) bs texts.
Proof.
  induction bs as [|b rest IH]; intros Hw Ht.
  - exists [], []. repeat split; constructor.
  - inversion Hw as [|? ? Hb Hrest]; subst.
    destruct (treat_block_text indent col tr failed b Hb) as [t [Hj Hbt]].
    { intros Hf. apply Ht. exists b. split; [left; reflexivity | exact Hf]. }
    destruct IH as [q [texts [Hq [Hjq Hf2]]]]; [exact Hrest | |].
    { intros [b' [Hin Hf]]. apply Ht. exists b'. split; [right; exact Hin | exact Hf]. }
    cbn [write_pieces]. destruct (treat_block indent col tr failed b) as [p| |]; cbn [joined] in Hj; try discriminate.
    rewrite Hq. eexists. exists (t :: texts). split; [reflexivity|]. split; [|constructor; assumption].
    rewrite !join_pieces_app, Hj. destruct rest as [|b2 rest'].
    + inversion Hf2; subst. cbn [write_pieces] in Hq. inversion Hq; subst.
      cbn [join_pieces option_map join]. rewrite app_nil_r. reflexivity.
    + inversion Hf2 as [|? t2 ? texts' ? ?]; subst.
      rewrite join_pieces_cons. cbn [join_pieces option_map app]. rewrite Hjq. cbn [option_map join]. rewrite app_nil_r. reflexivity.
Qed.

Lemma fields_pieces_forallb (p : piece -> bool) indent col tr fs :
  (forall last f, In f fs -> forallb p (field_pieces indent col tr last f) = true) ->
  forallb p (fields_pieces indent col tr fs) = true.
Proof.
  induction fs as [|f fs IH]; intros H; [reflexivity|]. cbn [fields_pieces].
  rewrite forallb_app, H, IH; [reflexivity | intros last g Hg; apply H; right; exact Hg | left; reflexivity].
Qed.

Lemma write_pieces_forallb (p : piece -> bool) indent col tr failed sep : forall bs ps,
  p (PStr sep) = true -> (forall b q, In b bs -> treat_block indent col tr failed b = Val q -> forallb p q = true) ->
  write_pieces indent col tr failed sep bs = Val ps -> forallb p ps = true.
Proof.
  induction bs as [|b rest IH]; intros ps Hs H W; cbn [write_pieces] in W; [injection W as <-; reflexivity|].
  destruct (treat_block indent col tr failed b) as [q| |] eqn:T; try discriminate.
  destruct (write_pieces indent col tr failed sep rest) as [r| |]; try discriminate. injection W as <-.
  rewrite !forallb_app, (H b q (or_introl eq_refl) T), (IH r Hs (fun b' q' Hb' => H b' q' (or_intror Hb')) eq_refl).
  destruct rest; cbn [forallb]; rewrite ?Hs; reflexivity.
Qed.

Lemma fold_max_spec : forall (ks : list str) (a : nat),
  let m := fold_left (fun m k => Nat.max m (List.length k)) ks a in
  a <= m /\ (forall k, In k ks -> List.length k <= m) /\ (m = a \/ exists k, In k ks /\ List.length k = m).
Proof.
  induction ks as [|k ks IH]; intros a; cbn [fold_left].
  - repeat split; [lia | intros k [] | left; reflexivity].
  - destruct (IH (Nat.max a (List.length k))) as [H1 [H2 H3]]. repeat split.
    + lia.
    + intros k' [E|Hin]; [subst; lia | apply H2; exact Hin].
    + destruct H3 as [E|[k' [Hin E]]].
      * destruct (Nat.max_spec a (List.length k)) as [[_ E2]|[_ E2]].
        -- right. exists k. split; [left; reflexivity | lia].
        -- left. lia.
      * right. exists k'. split; [right; exact Hin | exact E].
Qed.

Lemma fold_left_flat_map {A B C} (f : A -> B -> A) (g : C -> list B) : forall l a,
  fold_left f (flat_map g l) a = fold_left (fun a x => fold_left f (g x) a) l a.
Proof.
  induction l as [|x l IH]; intros a; [reflexivity|].
  cbn [flat_map fold_left]. rewrite fold_left_app. apply IH.
Qed.

Lemma max_key_len_keys bs : max_key_len bs = fold_left (fun m k => Nat.max m (List.length k)) (lib_keys bs) 0.
Proof. unfold max_key_len, lib_keys. rewrite fold_left_flat_map. reflexivity. Qed.

Lemma max_key_len_is_max bs : is_max_len (max_key_len bs) (lib_keys bs).
Proof.
  rewrite max_key_len_keys. destruct (fold_max_spec (lib_keys bs) 0) as [_ [H2 H3]].
  set (m := fold_left (fun m k => Nat.max m (List.length k)) (lib_keys bs) 0) in *.
  repeat split.
  - exact H2.
  - intros E. unfold m. rewrite E. reflexivity.
  - intros Hne. destruct H3 as [E|H3]; [|exact H3].
    destruct (lib_keys bs) as [|k ks] eqn:Ek; [contradiction|].
    exists k. split; [left; reflexivity|]. specialize (H2 k (or_introl eq_refl)). lia.
Qed.

Lemma is_max_len_unique m1 m2 ks : is_max_len m1 ks -> is_max_len m2 ks -> m1 = m2.
Proof.
  intros (A1 & B1 & C1) (A2 & B2 & C2). destruct ks as [|k0 ks]; [rewrite B1, B2; reflexivity|].
  destruct C1 as (k1 & I1 & L1); [discriminate|]. destruct C2 as (k2 & I2 & L2); [discriminate|].
  specialize (A1 k2 I2). specialize (A2 k1 I1). lia.
Qed.

Lemma auto_column_eq bs : auto_column bs = max_key_len bs + 3.
Proof. unfold auto_column. rewrite val_sep_len. reflexivity. Qed.

Lemma resolve_width_ok f bs : width_ok f bs (width_of (resolve_column f bs)).
Proof.
  unfold width_ok, resolve_column. destruct (f_column f) as [n|].
  - intros k. apply width_of_ok.
  - exists (max_key_len bs). split; [apply max_key_len_is_max|].
    intros k. rewrite auto_column_eq. apply width_of_ok.
Qed.

Lemma write_structure f bs :
  Forall writable bs -> (has_failed bs -> template_ok (f_failed f)) ->
  exists out, write f bs = Val out /\ written f bs out.
Proof.
  intros Hw Ht.
  destruct (write_pieces_text (f_indent f) (resolve_column f bs) (f_trailing f) (f_failed f) (f_sep f) bs Hw Ht)
    as [ps [texts [Hp [Hj Hf2]]]].
  exists (join (f_sep f) texts). split.
  - unfold write. rewrite Hp, Hj. reflexivity.
  - exists (width_of (resolve_column f bs)), texts. split; [apply resolve_width_ok|]. split; [exact Hf2 | reflexivity].
Qed.

Lemma width_determined f bs w1 w2 : width_ok f bs w1 -> width_ok f bs w2 -> forall k, w1 k = w2 k.
Proof.
  unfold width_ok. destruct (f_column f) as [n|].
  - intros H1 H2 k. rewrite (pad_width_unique _ _ _ (H1 k)), (pad_width_unique _ _ _ (H2 k)). reflexivity.
  - intros [m1 [M1 H1]] [m2 [M2 H2]] k. rewrite (is_max_len_unique _ _ _ M1 M2) in H1.
    rewrite (pad_width_unique _ _ _ (H1 k)), (pad_width_unique _ _ _ (H2 k)). reflexivity.
Qed.

Lemma auto_common_minimal f bs width indent :
  f_column f = ColAuto -> width_ok f bs width ->
  exists col,
    (forall k, In k (lib_keys bs) -> value_start indent k (width k) = List.length indent + col)
    /\ (lib_keys bs <> [] -> exists k, In k (lib_keys bs) /\ width k = 0)
    /\ (forall col', (forall k, In k (lib_keys bs) -> List.length k + 3 <= col') -> lib_keys bs <> [] -> col <= col')
    /\ col = resolve_column f bs.
Proof.
  intros Ha Hw. unfold width_ok in Hw. rewrite Ha in Hw. destruct Hw as [m [M Hp]].
  pose proof (is_max_len_unique _ _ _ M (max_key_len_is_max bs)) as Em. destruct M as [A [B C]].
  exists (m + 3). repeat split.
  - intros k Hin. apply (column_of_short_key indent (m + 3) k (width k) (Hp k)). specialize (A k Hin). lia.
  - intros Hne. destruct (C Hne) as [k [Hin Hl]]. exists k. split; [exact Hin|].
    destruct (Hp k) as [_ H0]. apply H0. lia.
  - intros col' Hall Hne. destruct (C Hne) as [k [Hin Hl]]. specialize (Hall k Hin). lia.
  - unfold resolve_column. rewrite Ha, auto_column_eq, Em. reflexivity.
Qed.

Lemma write_nonstr f bs ps :
  write_pieces (f_indent f) (resolve_column f bs) (f_trailing f) (f_failed f) (f_sep f) bs = Val ps ->
  In PBad ps -> write f bs = Raise ETypeError.
Proof.
  intros Hp Hin. unfold write. rewrite Hp, (join_pieces_bad ps Hin). reflexivity.
Qed.

Lemma join_cons2 sep x y r : join sep (x :: y :: r) = x ++ sep ++ join sep (y :: r).
Proof. reflexivity. Qed.
Lemma join_app sep : forall l1 l2, l1 <> [] -> l2 <> [] -> join sep (l1 ++ l2) = join sep l1 ++ sep ++ join sep l2.
Proof.
  induction l1 as [|x l1 IH]; intros l2 H1 H2; [contradiction|].
  destruct l1 as [|y l1].
  - destruct l2 as [|z l2]; [contradiction|]. reflexivity.
  - change ((x :: y :: l1) ++ l2) with (x :: y :: (l1 ++ l2)). rewrite !join_cons2.
    change (y :: l1 ++ l2) with ((y :: l1) ++ l2). rewrite IH by (auto; discriminate).
    rewrite <- !app_assoc. reflexivity.
Qed.
Lemma join_last sep l x : l <> [] -> join sep (l ++ [x]) = join sep l ++ sep ++ x.
Proof. intros H. apply join_app; [exact H | discriminate]. Qed.

(* the setter of BibtexFormat.value_column, the only one that validates (Model/FormatSetters.v) *)
Lemma value_column_setter : forall f a,
  (snd (assign_value_column f a) = false <->
     (exists z, a = VInt z /\ (0 <= z)%Z) \/ (exists b, a = VBool b) \/ a = VStr s_auto)
  /\ (snd (assign_value_column f a) = true -> fst (assign_value_column f a) = f)
  /\ (forall z, (0 <= z)%Z -> f_column (fst (assign_value_column f (VInt z))) = ColN (Z.to_nat z))
  /\ f_column (fst (assign_value_column f (VStr s_auto))) = ColAuto.
Proof.
  intros f a. unfold assign_value_column, set_value_column.
  split; [split|split; [|split]].
  - destruct a as [s|z| | | |b| | |]; cbn [snd fst]; try discriminate.
    + destruct (str_eqb s s_auto) eqn:E; cbn [snd]; [|discriminate]. intros _. right; right. apply str_eqb_eq in E. subst; reflexivity.
    + destruct (z <? 0)%Z eqn:E; cbn [snd]; [discriminate|]. intros _. left. exists z. split; [reflexivity|]. apply Z.ltb_ge; exact E.
    + intros _. right; left. exists b; reflexivity.
  - intros [(z & Ea & Hz)|[(b & Ea)| Ea]]; subst a.
    + apply Z.ltb_ge in Hz. rewrite Hz. reflexivity.
    + reflexivity.
    + rewrite str_eqb_refl. reflexivity.
  - destruct a as [s|z| | | |b| | |]; try reflexivity.
    + destruct (str_eqb s s_auto); cbn [snd fst]; [discriminate | reflexivity].
    + destruct (z <? 0)%Z; cbn [snd fst]; [reflexivity | discriminate].
    + cbn [snd]. discriminate.
  - intros z Hz. apply Z.ltb_ge in Hz. rewrite Hz. reflexivity.
  - rewrite str_eqb_refl. reflexivity.
Qed.

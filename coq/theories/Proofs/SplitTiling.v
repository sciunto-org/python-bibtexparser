(* C03: for every input text the raw texts of the blocks emitted by the splitter machine tile "\n" ++ text
   with whitespace-only gaps, every start_line is -1 + the number of newlines before the raw text, and every
   field of every emitted entry carries the line of an '=' of the entry's raw text.

   Ghost-state invariant over  fold_left step : [consumed] is the list of characters already processed;
   consumed = P ++ pending, where P is tiled by the blocks emitted so far (ending with a whitespace gap) and the
   pending text is the implicit comment (Out) or the raw accumulator of the open block (block modes).
   The invariant does not depend on the class annotations being a classify output, except for
   [ckok]: a character is classified MNL iff it is the newline, and MEq only if it is '='. *)
From Coq Require Import List NArith ZArith Bool Lia String.
From BP Require Import Base.Chars Model.Blocks Model.Lexer Model.Splitter Spec.C03 Proofs.SplitTotal.
Import ListNotations.
Local Open Scope Z_scope.

Lemma count_nl_app a b : count_nl (a ++ b) = count_nl a + count_nl b.
Proof. induction a as [|x a IH]; cbn [count_nl app]; [reflexivity | rewrite IH; lia]. Qed.

Lemma count_nl_rev l : count_nl (rev l) = count_nl l.
Proof. induction l as [|x l IH]; cbn [rev]; [reflexivity|]. rewrite count_nl_app, IH. cbn [count_nl]. lia. Qed.

Lemma count_nl_nonneg s : 0 <= count_nl s.
Proof. induction s as [|x s IH]; cbn [count_nl]; [lia|]. destruct (x =? c_nl)%N; lia. Qed.

Lemma count_nl_1 c : count_nl [c] = if (c =? c_nl)%N then 1 else 0.
Proof. cbn [count_nl]. destruct (c =? c_nl)%N; reflexivity. Qed.

Lemma all_ws_app a b : all_ws a -> all_ws b -> all_ws (a ++ b).
Proof. intros; apply Forall_app; split; assumption. Qed.

Lemma tiledL_app_ws n P L w : tiledL n P L -> all_ws w -> tiledL n (P ++ w) L.
Proof.
  intros H Hw. induction H as [n g Hg | n g r rest items Hg Hr H IH].
  - constructor. apply all_ws_app; assumption.
  - replace ((g ++ r ++ rest) ++ w) with (g ++ r ++ (rest ++ w)) by (rewrite <- !app_assoc; reflexivity).
    constructor; auto.
Qed.

Lemma tiledL_snoc n P L r : tiledL n P L -> r <> [] -> tiledL n (P ++ r) (L ++ [(r, n + count_nl P)]).
Proof.
  intros H Hr. induction H as [n g Hg | n g r0 rest items Hg Hr0 H IH].
  - cbn [app]. replace (g ++ r) with (g ++ r ++ []) by (rewrite app_nil_r; reflexivity).
    constructor; auto. constructor. constructor.
  - replace ((g ++ r0 ++ rest) ++ r) with (g ++ r0 ++ (rest ++ r)) by (rewrite <- !app_assoc; reflexivity).
    cbn [app]. constructor; auto.
    replace (n + count_nl (g ++ r0 ++ rest)) with (n + count_nl g + count_nl r0 + count_nl rest)
      by (rewrite !count_nl_app; lia).
    exact IH.
Qed.

Lemma raw_lines_snoc l a b x : raw_lines l = Some a -> raw_line b = Some x -> raw_lines (l ++ [b]) = Some (a ++ [x]).
Proof.
  revert a. induction l as [|y l IH]; intros a Ha Hb; cbn [raw_lines app] in *.
  - inversion Ha; subst. rewrite Hb. reflexivity.
  - destruct (raw_line y); [|discriminate]. destruct (raw_lines l) as [xs|]; [|discriminate].
    inversion Ha; subst. rewrite (IH xs eq_refl Hb). reflexivity.
Qed.

Lemma lstrip_split s : exists lead, s = lead ++ lstrip s /\ all_ws lead.
Proof.
  induction s as [|c r IH]; [exists []; split; [reflexivity|constructor]|].
  cbn [lstrip]. destruct (isspace c) eqn:E.
  - destruct IH as (lead & H1 & H2). exists (c :: lead). split; [cbn [app]; f_equal; exact H1 | constructor; assumption].
  - exists []. split; [reflexivity | constructor].
Qed.

Lemma rstrip_split s : exists trail, s = rstrip s ++ trail /\ all_ws trail.
Proof.
  unfold rstrip. rewrite !rv_rev. destruct (lstrip_split (rev s)) as (lead & H1 & H2).
  exists (rev lead). split; [|apply Forall_rev; assumption].
  rewrite <- rev_app_distr, <- H1, rev_involutive. reflexivity.
Qed.

Lemma skip_leading_split s : forall n rest n', skip_leading s n = (rest, n') ->
  exists lead, s = lead ++ rest /\ all_ws lead /\ n' = n + count_nl lead.
Proof.
  induction s as [|c r IH]; intros n rest n' H; cbn [skip_leading] in H.
  - inversion H; subst. exists []. repeat split; [constructor | cbn [count_nl]; lia].
  - destruct (c =? c_nl)%N eqn:E.
    + apply IH in H as (lead & H1 & H2 & H3). exists (c :: lead). split; [cbn [app]; f_equal; exact H1|].
      split; [constructor; [apply N.eqb_eq in E; subst c; reflexivity | exact H2]|].
      cbn [count_nl]. rewrite E. lia.
    + destruct (isspace c) eqn:E2.
      * apply IH in H as (lead & H1 & H2 & H3). exists (c :: lead). split; [cbn [app]; f_equal; exact H1|].
        split; [constructor; assumption|]. cbn [count_nl]. rewrite E. lia.
      * inversion H; subst. exists []. repeat split; [constructor | cbn [count_nl]; lia].
Qed.

Lemma end_implicit_spec text l : exists lead core trail,
  text = lead ++ core ++ trail /\ all_ws lead /\ all_ws trail /\
  ((core = [] /\ end_implicit text l = None) \/
   (core <> [] /\ end_implicit text l = Some (BImpl (mkhdr (Some (l + count_nl lead)) (Some core) []) core))).
Proof.
  unfold end_implicit. destruct (skip_leading text 0) as [rest n] eqn:E.
  apply skip_leading_split in E as (lead & H1 & H2 & H3).
  destruct (rstrip_split rest) as (trail & H4 & H5).
  exists lead, (rstrip rest), trail. split; [rewrite <- H4; exact H1|]. split; [exact H2|]. split; [exact H5|].
  replace n with (count_nl lead) by lia.
  destruct (rstrip rest) as [|x y] eqn:E2.
  - left; split; reflexivity.
  - right. split; [discriminate | reflexivity].
Qed.

(* field f of a block with raw text r starting on line l0: its line is the line of an '=' of r *)
Definition fld_ok (r : str) (l0 : Z) (f : field) : Prop :=
  exists l pre post, fline f = Some l /\ r = pre ++ c_eq :: post /\ l = l0 + count_nl pre.
Definition ent_ok (h : hdr) (fs : list field) : Prop :=
  match raw h, sl h with Some r, Some l0 => Forall (fld_ok r l0) fs | _, _ => True end.
Definition blk_ok (b : block) : Prop :=
  match b with
  | BEntry h _ _ fs => ent_ok h fs
  | BDupField h _ (BEntry h' _ _ fs) => ent_ok h fs /\ h' = h
  | _ => True
  end.
(* the open field: the '=' that set f_line *)
Definition open_fld_ok (o : openb) : Prop :=
  exists pre post, rev (raw_rev o) = pre ++ c_eq :: post /\ f_line o = b_line o + count_nl pre.

Lemma fld_ok_ext r l0 c f : fld_ok r l0 f -> fld_ok (r ++ [c]) l0 f.
Proof.
  intros (l & pre & post & H1 & H2 & H3). exists l, pre, (post ++ [c]). split; [exact H1|]. split; [|exact H3].
  rewrite H2, <- app_assoc. reflexivity.
Qed.

Lemma fld_ok_range r l0 f : fld_ok r l0 f -> exists l, fline f = Some l /\ l0 <= l <= l0 + count_nl r.
Proof.
  intros (l & pre & post & H1 & H2 & H3). exists l. split; [exact H1|]. subst r l.
  rewrite count_nl_app. pose proof (count_nl_nonneg pre). pose proof (count_nl_nonneg (c_eq :: post)). lia.
Qed.

(* common to all modes: consumed = P ++ pending, where P is tiled by the blocks emitted so far and the pending
   text (the implicit comment or the raw text of the open block, reversed in [pend]) starts on line [start];
   the emitted blocks also satisfy blk_ok *)
Definition Tiled (out : list block) (ln : Z) (consumed pend : str) (start : Z) : Prop :=
  exists P items, consumed = P ++ rev pend /\ raw_lines (rev out) = Some items /\ tiledL (-1) P items /\
    ln = -1 + count_nl consumed /\ start = -1 + count_nl P /\ Forall blk_ok out.

Definition OutInv (s : st) (consumed : str) : Prop :=
  Tiled (out_rev s) (line s) consumed (ic_rev s) (ic_line s).

Definition BlkInv (s : st) (consumed : str) : Prop :=
  Tiled (out_rev s) (line s) consumed (raw_rev (ob s)) (b_line (ob s)) /\
  raw_rev (ob s) <> [] /\
  Forall (fld_ok (rev (raw_rev (ob s))) (b_line (ob s))) (flds_rev (ob s)) /\
  (in_value (md s) -> open_fld_ok (ob s)).

Definition Inv (s : st) (consumed : str) : Prop :=
  match md s with Crashed => True | Out => OutInv s consumed | _ => BlkInv s consumed end.

Lemma tiled_line out ln consumed pend start :
  Tiled out ln consumed pend start -> ln = start + count_nl (rev pend).
Proof. intros (P & items & H1 & _ & _ & H4 & H5 & _). rewrite H4, H5, H1, count_nl_app. lia. Qed.

(* one more character is pending *)
Lemma tiled_push out ln ln' consumed pend start c :
  Tiled out ln consumed pend start -> ln' = ln + (if (c =? c_nl)%N then 1 else 0) ->
  Tiled out ln' (consumed ++ [c]) (c :: pend) start.
Proof.
  intros (P & items & H1 & H2 & H3 & H4 & H5 & H6) Hln. exists P, items. cbn [rev].
  split; [rewrite H1, app_assoc; reflexivity|]. split; [exact H2|]. split; [exact H3|].
  split; [rewrite count_nl_app, count_nl_1; lia|]. split; [exact H5 | exact H6].
Qed.

(* the pending text becomes the raw text of a block *)
Lemma tiled_emit out ln consumed pend start b :
  Tiled out ln consumed pend start -> pend <> [] -> raw_line b = Some (rev pend, start) -> blk_ok b ->
  Tiled (b :: out) ln consumed [] ln.
Proof.
  intros (P & items & H1 & H2 & H3 & H4 & H5 & H6) Hp Hr Hb.
  exists consumed, (items ++ [(rev pend, start)]). cbn [rev].
  split; [rewrite app_nil_r; reflexivity|]. split; [apply raw_lines_snoc; assumption|].
  split.
  { rewrite H1, H5. apply tiledL_snoc; [exact H3|]. intro X. apply Hp.
    apply (f_equal (@rev ch)) in X. rewrite rev_involutive in X. exact X. }
  split; [exact H4|]. split; [exact H4|]. constructor; assumption.
Qed.

(* nothing is pending: the emitted blocks, in source order, tile the consumed text *)
Lemma tiled_done out ln consumed start : Tiled out ln consumed [] start ->
  exists items, raw_lines (rv out) = Some items /\ tiledL (-1) consumed items /\ Forall blk_ok (rv out).
Proof.
  intros (P & items & H1 & H2 & H3 & _ & _ & H6). cbn [rev] in H1. rewrite app_nil_r in H1. subst P.
  exists items. rewrite rv_rev. split; [exact H2|]. split; [exact H3 | apply Forall_rev, H6].
Qed.

(* an update puts the character on the raw accumulator; the fields are kept, dropped, or the open field (whose
   '=' set f_line) joins them: all keep their '=' *)
Lemma upd_raw u c ln o : raw_rev (ob_upd u c ln o) = c :: raw_rev o /\ b_line (ob_upd u c ln o) = b_line o.
Proof. destruct u; split; reflexivity. Qed.
Lemma upd_flds u c ln o : (u = UField -> open_fld_ok o) ->
  Forall (fld_ok (rev (raw_rev o)) (b_line o)) (flds_rev o) ->
  Forall (fld_ok (rev (c :: raw_rev o)) (b_line o)) (flds_rev (ob_upd u c ln o)).
Proof.
  intros Hf H.
  assert (K : Forall (fld_ok (rev (c :: raw_rev o)) (b_line o)) (flds_rev o)).
  { eapply Forall_impl; [|exact H]. intros f. apply fld_ok_ext. }
  destruct u; try exact K; try constructor; [|exact K].
  destruct (Hf eq_refl) as (pre & post & Hr & Hl). apply fld_ok_ext. exists (f_line o), pre, post. auto.
Qed.

(* the open block is emitted as it stands (closed, or failed with the pending raw text): back to Out *)
Lemma blk_emit s consumed b oo :
  BlkInv s consumed -> bhdr b = hdr_of (ob s) ->
  (Forall (fld_ok (rev (raw_rev (ob s))) (b_line (ob s))) (flds_rev (ob s)) -> blk_ok b) ->
  OutInv (mkst Out (line s) (b :: out_rev s) [] (line s) oo) consumed.
Proof.
  intros (T & H6 & H8 & _) Hh Hb. apply (tiled_emit _ _ _ _ _ b T H6); [|exact (Hb H8)].
  unfold raw_line. rewrite Hh. cbn [hdr_of raw sl]. rewrite rv_rev. reflexivity.
Qed.

(* the Python raised BlockAbortedException: failed block with the pending raw *)
Lemma blk_abort s consumed reason oo :
  BlkInv s consumed ->
  OutInv (mkst Out (line s) (failed_block (ob s) reason :: out_rev s) [] (line s) oo) consumed.
Proof. intros H. apply blk_emit; [exact H | reflexivity | intros _; exact I]. Qed.

Lemma flush_ok s consumed : OutInv s consumed -> Tiled (flush_ic s) (line s) consumed [] (line s).
Proof.
  intros (P & items & H1 & H2 & H3 & H4 & H5 & H6).
  unfold flush_ic. rewrite rv_rev.
  destruct (end_implicit_spec (rev (ic_rev s)) (ic_line s)) as (lead & core & trail & Ht & Hl & Htr & [[Hc He]|[Hc He]]);
    rewrite He.
  - exists consumed, items. cbn [rev]. split; [rewrite app_nil_r; reflexivity|]. split; [exact H2|].
    split; [|split; [exact H4 | split; [exact H4 | exact H6]]].
    rewrite H1, Ht, Hc. cbn [app]. apply tiledL_app_ws; [exact H3|]. apply all_ws_app; assumption.
  - exists consumed, (items ++ [(core, -1 + count_nl (P ++ lead))]). cbn [rev].
    split; [rewrite app_nil_r; reflexivity|]. split.
    { apply raw_lines_snoc; [exact H2|]. unfold raw_line. cbn [bhdr raw sl].
      rewrite count_nl_app, H5. do 2 f_equal. lia. }
    split; [|split; [exact H4 | split; [exact H4 | constructor; [exact I | exact H6]]]].
    rewrite H1, Ht. replace (P ++ lead ++ core ++ trail) with (((P ++ lead) ++ core) ++ trail)
      by (rewrite <- !app_assoc; reflexivity).
    apply tiledL_app_ws; [|exact Htr]. apply tiledL_snoc; [|exact Hc]. apply tiledL_app_ws; assumption.
Qed.

Definition ckok (ck : ch * option mk) : Prop :=
  (snd ck = Some MNL <-> fst ck = c_nl) /\ (snd ck = Some MEq -> fst ck = c_eq).

Lemma classify1_ckok pb c r : ckok (c, classify1 pb c r).
Proof. split; cbn [fst snd]; [apply classify1_nl | apply (classify1_char pb c r MEq)]. Qed.

Lemma classify_ckok l : forall pb, Forall ckok (classify pb l).
Proof.
  induction l as [|c r IH]; intros pb; cbn [classify]; constructor; [apply classify1_ckok | apply IH].
Qed.

Lemma classify_fst l : forall pb, map fst (classify pb l) = l.
Proof. induction l as [|c r IH]; intros pb; cbn [classify map fst]; [reflexivity | rewrite IH; reflexivity]. Qed.

Lemma inv_step_out s consumed c k :
  ckok (c, k) -> OutInv s consumed -> Inv (step_out s c k) (consumed ++ [c]).
Proof.
  intros [[Hnl1 Hnl2] _] H. cbn [fst snd] in *.
  assert (Hnl : k <> Some MNL -> (c =? c_nl)%N = false) by (intros A; apply N.eqb_neq; intros B; apply A, Hnl2, B).
  (* Out mode keeps collecting the implicit comment *)
  assert (Keep : forall ln' oo, ln' = line s + (if (c =? c_nl)%N then 1 else 0) ->
            Inv (mkst Out ln' (out_rev s) (c :: ic_rev s) (ic_line s) oo) (consumed ++ [c])).
  { intros. eapply tiled_push; eassumption. }
  destruct k as [[]|]; cbn [step_out]; try (apply Keep; rewrite Hnl by discriminate; lia).
  - apply Keep. rewrite (Hnl1 eq_refl). reflexivity.
  - (* MAt: the implicit comment is flushed, the mark is pending *)
    split; [|split; [discriminate | split; [constructor | intros []]]].
    cbn [line out_rev ob ob0 raw_rev b_line]. apply (tiled_push _ _ _ _ _ _ c (flush_ok _ _ H)).
    rewrite Hnl by discriminate. lia.
Qed.

Lemma bhdr_entry o : bhdr (entry_block o) = hdr_of o.
Proof. unfold entry_block. destruct (dups o); reflexivity. Qed.
Lemma bhdr_braces k o : bhdr (braces_block k o) = hdr_of o.
Proof. destruct k; reflexivity. Qed.
Lemma blk_ok_braces k o : blk_ok (braces_block k o).
Proof. destruct k; exact I. Qed.
Lemma blk_ok_entry o :
  Forall (fld_ok (rev (raw_rev o)) (b_line o)) (flds_rev o) -> blk_ok (entry_block o).
Proof.
  intros H. assert (E : ent_ok (hdr_of o) (rv (flds_rev o))).
  { unfold ent_ok. cbn [hdr_of raw sl]. rewrite !rv_rev. apply Forall_rev. exact H. }
  unfold entry_block. destruct (dups o); cbn [blk_ok]; [exact E | split; [exact E | reflexivity]].
Qed.

Lemma inv_blk s consumed : blockmode (md s) -> Inv s consumed = BlkInv s consumed.
Proof. unfold Inv. destruct (md s); intros []; reflexivity. Qed.

(* a block-mode step as far as the open block goes: the character is consumed, the update made *)
Lemma blk_step s consumed c k m' ln' u :
  ckok (c, k) -> BlkInv s consumed -> upd_fits (md s) k m' u ->
  ln' = line s + (if (c =? c_nl)%N then 1 else 0) ->
  BlkInv (mkst m' ln' (out_rev s) (ic_rev s) (ic_line s) (ob_upd u c (line s) (ob s))) (consumed ++ [c]).
Proof.
  intros [_ Heq] (T & H6 & H8 & H9) U Hln. cbn [fst snd] in Heq. destruct (upd_raw u c (line s) (ob s)) as [E1 E2].
  unfold BlkInv. cbn [md line out_rev ob]. rewrite E1, E2.
  split; [eapply tiled_push; eassumption|]. split; [discriminate|].
  split; [apply upd_flds; [intros ->; apply H9, U | exact H8]|].
  intros V. unfold open_fld_ok. rewrite E1, E2. cbn [rev].
  destruct (upd_fline _ _ _ _ c (line s) (ob s) U V) as [[V' Hf]|[Hf E]]; rewrite Hf.
  - destruct (H9 V') as (pre & post & Hr & Hl). exists pre, (post ++ [c]).
    split; [rewrite Hr, <- app_assoc; reflexivity | exact Hl].
  - exists (rev (raw_rev (ob s))), []. split; [rewrite (Heq E); reflexivity | exact (tiled_line _ _ _ _ _ T)].
Qed.

Lemma step_inv s consumed c k : ckok (c, k) -> Inv s consumed -> Inv (step s (c, k)) (consumed ++ [c]).
Proof.
  intros Hck H. pose proof Hck as [[Hnl1 Hnl2] _]. cbn [fst snd] in *.
  assert (Hnl : k <> Some MNL -> (c =? c_nl)%N = false) by (intros A; apply N.eqb_neq; intros B; apply A, Hnl2, B).
  rewrite step_action. pose proof (action_fits (md s) k (head_ty (ob s))) as F.
  destruct (action_of _ _ _) as [ | | |m' u|u|kd u|r]; cbn [fits perform] in *.
  - unfold Inv. rewrite F. exact I.
  - apply inv_step_out; [exact Hck|]. unfold Inv in H. rewrite F in H. exact H.
  - exact I.
  - destruct F as (B & B' & Knl & _ & U). rewrite (inv_blk _ _ B) in H. rewrite inv_blk by exact B'.
    apply (blk_step _ _ _ _ _ _ _ Hck H U). rewrite (Hnl Knl). lia.
  - destruct F as (B & _ & -> & U). rewrite (inv_blk _ _ B) in H. rewrite inv_blk by exact B.
    apply (blk_step _ _ _ _ _ _ _ Hck H U). rewrite (Hnl1 eq_refl). reflexivity.
  - (* the closing brace joins the block, which is then emitted *)
    destruct F as (B & -> & U). rewrite (inv_blk _ _ B) in H.
    assert (H' := blk_step s consumed c _ Out (line s) u Hck H U).
    rewrite Hnl in H' by discriminate. specialize (H' ltac:(lia)).
    unfold Inv. destruct kd as [kd|]; cbn [close_block md]; apply (blk_emit _ _ _ (ob s) H'); cbn [ob].
    + apply bhdr_braces.
    + intros _. apply blk_ok_braces.
    + apply bhdr_entry.
    + apply blk_ok_entry.
  - rewrite (inv_blk _ _ F) in H. unfold abort. apply inv_step_out; [exact Hck|].
    apply blk_abort. exact H.
Qed.

Lemma run_inv cl : forall s consumed, Forall ckok cl -> Inv s consumed ->
  Inv (fold_left step cl s) (consumed ++ map fst cl).
Proof.
  induction cl as [|[c k] cl IH]; intros s consumed Hc H; cbn [fold_left map fst].
  - rewrite app_nil_r. exact H.
  - inversion Hc; subst.
    replace (consumed ++ c :: map fst cl) with ((consumed ++ [c]) ++ map fst cl) by (rewrite <- app_assoc; reflexivity).
    apply IH; [assumption|]. apply step_inv; assumption.
Qed.

Lemma inv_st0 : Inv st0 [].
Proof. exists [], []. repeat split; constructor. constructor. Qed.

Lemma finish_inv s consumed bs : Inv s consumed -> finish s = Blocks bs ->
  exists items, raw_lines bs = Some items /\ tiledL (-1) consumed items /\ Forall blk_ok bs.
Proof.
  intros H F. destruct (finish_blocks _ _ F) as [[M ->]|[B ->]].
  - unfold Inv in H. rewrite M in H. exact (tiled_done _ _ _ _ (flush_ok _ _ H)).
  - rewrite (inv_blk _ _ B) in H. exact (tiled_done _ _ _ _ (blk_abort s consumed R_EOF (ob s) H)).
Qed.

Lemma inv_run t : Inv (run t) (c_nl :: t).
Proof.
  pose proof (run_inv (classify false (c_nl :: t)) st0 [] (classify_ckok _ _) inv_st0) as H.
  rewrite classify_fst in H. exact H.
Qed.

Lemma inv_line s consumed : Inv s consumed -> md s <> Crashed -> line s = -1 + count_nl consumed.
Proof.
  unfold Inv. intros H Hc.
  assert (T : forall pend start, Tiled (out_rev s) (line s) consumed pend start -> line s = -1 + count_nl consumed)
    by (intros pend start (P & items & _ & _ & _ & H4 & _); exact H4).
  destruct (md s); try contradiction; eapply T, H.
Qed.

Lemma run_line p : line (run p) = count_nl p.
Proof.
  rewrite (inv_line _ _ (inv_run p) (proj1 (run_md p))). cbn [count_nl]. rewrite N.eqb_refl. lia.
Qed.

Lemma split_raw_inv t bs : split_raw t = Blocks bs ->
  exists items, raw_lines bs = Some items /\ tiledL (-1) (c_nl :: t) items /\ Forall blk_ok bs.
Proof. apply finish_inv, inv_run. Qed.

Theorem split_raw_tiles : forall (t : str) (bs : list block),
  split_raw t = Blocks bs -> tiles_with_true_lines t bs.
Proof.
  intros t bs F. destruct (split_raw_inv t bs F) as (items & H1 & H2 & _).
  exists items. split; assumption.
Qed.

(* every field of every emitted entry (bare or wrapped in a duplicate-field block) carries the line of an '='
   of the entry's raw text: raw = pre ++ '=' :: post and line = start_line + number of newlines of pre.
   The statement does not say which '='; in the machine it is the one read in FldKey mode (ob_eq stores
   [line s] there, ob_field copies it into the field). *)
Theorem field_line_is_eq_line : forall (t : str) (bs : list block),
  split_raw t = Blocks bs -> Forall blk_ok bs.
Proof. intros t bs F. destruct (split_raw_inv t bs F) as (items & _ & _ & H). exact H. Qed.

(* the range form: start_line <= field line <= start_line + newlines of raw *)
Definition fields_in_range (b : block) : Prop :=
  forall h ty k fs, (b = BEntry h ty k fs \/ exists ks, b = BDupField h ks (BEntry h ty k fs)) ->
  forall r l0, raw h = Some r -> sl h = Some l0 ->
  Forall (fun f => exists l, fline f = Some l /\ l0 <= l <= l0 + count_nl r) fs.

Corollary field_lines_in_range : forall (t : str) (bs : list block),
  split_raw t = Blocks bs -> Forall fields_in_range bs.
Proof.
  intros t bs F. eapply Forall_impl; [|exact (field_line_is_eq_line t bs F)].
  intros b Hb h ty k fs Hs r l0 Hr Hl.
  assert (E : ent_ok h fs).
  { destruct Hs as [-> | [ks ->]]; cbn [blk_ok] in Hb; [exact Hb | exact (proj1 Hb)]. }
  unfold ent_ok in E. rewrite Hr, Hl in E.
  eapply Forall_impl; [|exact E]. intros f. apply fld_ok_range.
Qed.

Definition ex_text : str := lit "@a{k, x = {y}} junk @b{".

Example ex_split : exists b1 b2 b3,
  split_raw ex_text = Blocks [b1; b2; b3] /\ map class_of [b1; b2; b3] = [CEntry; CImpl; CFailed].
Proof. do 3 eexists. split; vm_compute; reflexivity. Qed.

Example ex_tiles : exists bs, split_raw ex_text = Blocks bs /\ List.length bs = 3%nat /\
  tiles_with_true_lines ex_text bs /\ Forall blk_ok bs.
Proof.
  destruct ex_split as (b1 & b2 & b3 & E & _). exists [b1; b2; b3].
  split; [exact E|]. split; [reflexivity|].
  split; [apply split_raw_tiles | eapply field_line_is_eq_line]; exact E.
Qed.

Print Assumptions split_raw_tiles.
Print Assumptions field_line_is_eq_line.
Print Assumptions field_lines_in_range.

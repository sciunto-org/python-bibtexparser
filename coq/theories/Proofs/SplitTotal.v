(* The transition function of the splitter machine in tabular form, and C01, splitter part.

   [step] is a nest of matches on the mode, the mark and a few tests.  [action_of] is the same table with the
   state taken out: what a transition does depends on the mode, the mark and the head type only, and there are
   seven things it can do ([perform]).  [action_fits] records, once, what the invariants of the machine need to
   know about the table (which actions occur in which modes and at which marks, when the line of a field is
   live); each invariant is then proved by cases on the action, with one lemma about the updates of the open
   block ([ob_upd]).

   C01: for every text the machine ends in a state that yields blocks; the two "should never happen"
   exceptions of splitter.py (ParserStateException / RegexMismatchException when the mark after an @-match is
   not an opening brace) are unreachable because of the look-ahead of the mark regex. *)
From Coq Require Import List NArith ZArith Bool Lia.
From BP Require Import Base.Chars Model.Blocks Model.Lexer Model.Splitter.
Import ListNotations.
Local Open Scope N_scope.

Definition mk_char (k : mk) : ch :=
  match k with
  | MLB => c_lb | MRB => c_rb | MQ => c_quote | MComma => c_comma | MEq => c_eq | MNL => c_nl | MAt => c_at
  end.

(* classify1 is a chain of comparisons with these literals; the first one that succeeds names the mark *)
Lemma classify1_char pb c r k : classify1 pb c r = Some k -> c = mk_char k.
Proof.
  unfold classify1.
  destruct (N.eqb_spec c c_nl) as [->|_]; [intros [= <-]; reflexivity|].
  destruct (N.eqb_spec c c_at) as [->|_]; [destruct (at_ok r); [intros [= <-]; reflexivity | discriminate]|].
  destruct pb; [discriminate|].
  destruct (N.eqb_spec c c_lb) as [->|_]; [intros [= <-]; reflexivity|].
  destruct (N.eqb_spec c c_rb) as [->|_]; [intros [= <-]; reflexivity|].
  destruct (N.eqb_spec c c_quote) as [->|_]; [intros [= <-]; reflexivity|].
  destruct (N.eqb_spec c c_comma) as [->|_]; [intros [= <-]; reflexivity|].
  destruct (N.eqb_spec c c_eq) as [->|_]; [intros [= <-]; reflexivity | discriminate].
Qed.

Lemma classify1_nl pb c r : classify1 pb c r = Some MNL <-> c = c_nl.
Proof. split; [apply classify1_char | intros ->; reflexivity]. Qed.

Lemma classify1_at pb r : classify1 pb c_at r = if at_ok r then Some MAt else None.
Proof. reflexivity. Qed.

Lemma at_mark_spec pb c r : classify1 pb c r = Some MAt -> c = c_at /\ at_ok r = true.
Proof.
  intros E. pose proof (classify1_char _ _ _ _ E) as ->. split; [reflexivity|].
  rewrite classify1_at in E. destruct (at_ok r); [reflexivity | discriminate].
Qed.

(* a class of characters that holds none of the seven literals is plain *)
Lemma plain_class (f : ch -> bool) pb c r :
  (forall k, f (mk_char k) = false) -> f c = true -> classify1 pb c r = None.
Proof.
  intros Hf Hc. destruct (classify1 pb c r) as [k|] eqn:E; [|reflexivity].
  apply classify1_char in E. subst c. rewrite Hf in Hc. discriminate.
Qed.

Lemma eqb_false_of_flag (f : ch -> bool) (c lit : ch) : f c = true -> f lit = false -> (c =? lit) = false.
Proof. intros Hc Hl. apply N.eqb_neq. intros E. subst. congruence. Qed.

Lemma word_plain pb c r : isword c = true -> classify1 pb c r = None.
Proof. apply plain_class. intros []; reflexivity. Qed.
Lemma word_not_bs c : isword c = true -> (c =? c_bs) = false.
Proof. intros H. apply (eqb_false_of_flag isword c c_bs H eq_refl). Qed.

Lemma sptab_cases c : is_sptab c = true -> c = c_sp \/ c = c_tab.
Proof. unfold is_sptab. rewrite orb_true_iff, !N.eqb_eq. tauto. Qed.
Lemma sptab_plain pb c r : is_sptab c = true -> classify1 pb c r = None.
Proof. apply plain_class. intros []; reflexivity. Qed.
Lemma sptab_not_bs c : is_sptab c = true -> (c =? c_bs) = false.
Proof. intros H. destruct (sptab_cases c H); subst; reflexivity. Qed.

(* the look-ahead of the mark regex does not see past a character that is neither a word character nor a blank *)
Lemma drop_while_stop p r c X : p c = false -> drop_while p (r ++ c :: X) = drop_while p r ++ c :: X.
Proof.
  intros Hc. induction r as [|a r IH]; cbn [app drop_while].
  - rewrite Hc. reflexivity.
  - destruct (p a); [exact IH | reflexivity].
Qed.

Lemma at_ok_stop r c X : isword c = false -> is_sptab c = false -> at_ok (r ++ c :: X) = at_ok (r ++ [c]).
Proof.
  intros Hw Hs. unfold at_ok. rewrite !(drop_while_stop isword r c) by exact Hw.
  rewrite !(drop_while_stop is_sptab _ c) by exact Hs.
  destruct (drop_while is_sptab (drop_while isword r)); reflexivity.
Qed.

(* what a transition does to the open block; the character always joins the raw text *)
Inductive obupd :=
| URaw                       (* nothing more *)
| URawTyp | URawA | URawV    (* it also joins one accumulator *)
| UOpen (ty : str) | UKey    (* accumulators and fields start afresh *)
| UEq                        (* the value starts; the line of the '=' is recorded *)
| UField.                    (* the open field is completed first *)

Definition ob_upd (u : obupd) (c : ch) (ln : Z) (o : openb) : openb :=
  match u with
  | URaw => ob_raw c o
  | URawTyp => ob_raw_typ c o
  | URawA => ob_raw_a c o
  | URawV => ob_raw_v c o
  | UOpen ty => ob_open c ty o
  | UKey => ob_key c o
  | UEq => ob_eq c ln o
  | UField => ob_raw c (ob_field o)
  end.

Inductive action :=
| AKeep                                   (* Crashed: nothing moves *)
| AOut                                    (* Out: [step_out] *)
| ACrash                                  (* Head at a mark other than '{' *)
| AUpd (m : mode) (u : obupd)             (* the block stays open *)
| ANl (u : obupd)                         (* the same at a newline: the mode stays, the line counter moves *)
| AClose (kd : option kind) (u : obupd)   (* the block is complete: braces block of that kind, or entry *)
| AAbort (r : N).                         (* BlockAbortedException: failed block, then [step_out] *)

Definition perform (a : action) (s : st) (c : ch) (k : option mk) : st :=
  match a with
  | AKeep => s
  | AOut => step_out s c k
  | ACrash => upd s Crashed (ob s)
  | AUpd m u => upd s m (ob_upd u c (line s) (ob s))
  | ANl u => upd_nl s (ob_upd u c (line s) (ob s))
  | AClose (Some kd) u => close_block s (braces_block kd (ob_upd u c (line s) (ob s)))
  | AClose None u => close_block s (entry_block (ob_upd u c (line s) (ob s)))
  | AAbort r => abort s r c k
  end.

Definition head_ty (o : openb) : str := lower (rv (typ_rev o)).

Definition action_of (m : mode) (k : option mk) (ty : str) : action :=
  match m, k with
  | Crashed, _ => AKeep
  | Out, _ => AOut
  | Head, None => AUpd Head URawTyp
  | Head, Some MLB =>
      if starts_with s_comment ty then AUpd (InBraces KComment 0) (UOpen [])
      else if starts_with s_preamble ty then AUpd (InBraces KPreamble 0) (UOpen [])
      else if starts_with s_string ty then AUpd StrKey (UOpen [])
      else AUpd EntKey (UOpen (strip ty))
  | Head, Some _ => ACrash
  | _, Some MNL => match m with InBraces _ _ | FldVal _ _ => ANl URawV | _ => ANl URawA end
  | InBraces kd d, Some MLB => AUpd (InBraces kd (d + 1)) URawV
  | InBraces kd d, Some MRB => if d =? 0 then AClose (Some kd) URaw else AUpd (InBraces kd (d - 1)) URawV
  | InBraces _ _, Some MAt => AAbort R_AT_BRACKET
  | InBraces _ _, _ => AUpd m URawV
  | (StrKey | EntKey | FldKey), None => AUpd m URawA
  | StrKey, Some MEq => AUpd (InBraces KString 0) UEq
  | StrKey, Some _ => AAbort R_STR_NO_EQ
  | EntKey, Some MRB => AClose None UKey
  | EntKey, Some MComma => AUpd FldKey UKey
  | EntKey, Some _ => AAbort R_NO_COMMA
  | FldKey, Some MRB => AClose None URaw
  | FldKey, Some MEq => AUpd (FldVal false 0) UEq
  | FldKey, Some _ => AAbort R_NO_EQ
  | FldVal q d, Some MQ => AUpd (if d =? 0 then FldVal (negb q) d else FldVal q d) URawV
  | FldVal q d, Some MLB => AUpd (if q then FldVal q d else FldVal q (d + 1)) URawV
  | FldVal q d, Some MRB =>
      if q then AUpd m URawV else if d =? 0 then AClose None UField else AUpd (FldVal q (d - 1)) URawV
  | FldVal q d, Some MComma => if q || negb (d =? 0) then AUpd m URawV else AUpd FldKey UField
  | FldVal q d, Some MAt => AAbort (if q then R_AT_QUOTE else if d =? 0 then R_AT_FIELD else R_AT_CURLY)
  | FldVal _ _, _ => AUpd m URawV
  end.

Lemma step_action s c k : step s (c, k) = perform (action_of (md s) k (head_ty (ob s))) s c k.
Proof.
  unfold step, head_ty. destruct (md s) as [| |kd d| | | |q d|]; destruct k as [[]|]; cbn [action_of perform];
    try reflexivity.
  - destruct (starts_with s_comment _); [reflexivity|]. destruct (starts_with s_preamble _); [reflexivity|].
    destruct (starts_with s_string _); reflexivity.
  - destruct (d =? 0); reflexivity.
  - destruct q; [reflexivity|]. destruct (d =? 0); reflexivity.
  - destruct (q || negb (d =? 0))%bool; reflexivity.
Qed.

(* modes with an open block; modes in which the line of the open field is live *)
Definition blockmode (m : mode) : Prop := match m with Out | Crashed => False | _ => True end.
Definition in_value (m : mode) : Prop := match m with FldVal _ _ => True | _ => False end.

(* what the table guarantees about an update u on the way from mode m to mode m': the line of the field is
   live afterwards only if it was live before or is set here, and a field is completed only when it is live *)
Definition upd_fits (m : mode) (k : option mk) (m' : mode) (u : obupd) : Prop :=
  match u with
  | UEq => k = Some MEq
  | UField => in_value m /\ ~ in_value m'
  | _ => in_value m' -> in_value m
  end.

Definition fits (m : mode) (k : option mk) (a : action) : Prop :=
  match a with
  | AKeep => m = Crashed
  | AOut => m = Out
  | ACrash => m = Head /\ k <> None /\ k <> Some MLB
  | AUpd m' u => blockmode m /\ blockmode m' /\ k <> Some MNL /\
                 (m' = Head -> m = Head /\ k = None) /\ upd_fits m k m' u
  | ANl u => blockmode m /\ m <> Head /\ k = Some MNL /\ upd_fits m k m u
  | AClose _ u => blockmode m /\ k = Some MRB /\ upd_fits m k Out u
  | AAbort _ => blockmode m
  end.

Lemma action_fits m k ty : fits m k (action_of m k ty).
Proof.
  (* entry by entry; what is left in each is closed equations, inequations of constructors, True and False *)
  destruct m as [| |kd d| | | |q d|]; destruct k as [[]|]; cbn [action_of];
    repeat match goal with |- context [if ?b then _ else _] => destruct b end;
    cbn; repeat split; try discriminate; auto.
Qed.

(* the line of the field after an update: carried over, or that of this '=' *)
Lemma upd_fline m k m' u c ln o : upd_fits m k m' u -> in_value m' ->
  (in_value m /\ f_line (ob_upd u c ln o) = f_line o) \/ (f_line (ob_upd u c ln o) = ln /\ k = Some MEq).
Proof.
  intros U V. destruct u; cbn [upd_fits] in U; try (left; split; [exact (U V) | reflexivity]).
  - right. split; [reflexivity | exact U].
  - destruct U as [_ U]. contradiction.
Qed.

Lemma step_out_md s c k : md (step_out s c k) = match k with Some MAt => Head | _ => Out end.
Proof. destruct k as [[]|]; reflexivity. Qed.
Lemma abort_md s rs c k : md (abort s rs c k) = match k with Some MAt => Head | _ => Out end.
Proof. unfold abort. apply step_out_md. Qed.

(* flushing the implicit comment emits at most one block *)
Lemma flush_ic_cases s :
  flush_ic s = out_rev s \/ exists l c, flush_ic s = BImpl (mkhdr (Some l) (Some c) []) c :: out_rev s.
Proof.
  unfold flush_ic, end_implicit. destruct (skip_leading _ _) as [rest n].
  destruct (rstrip rest); [left; reflexivity | right; eexists _, _; reflexivity].
Qed.

(* at the end of the input: the implicit comment is flushed, or the open block fails *)
Lemma finish_blocks s bs : finish s = Blocks bs ->
  (md s = Out /\ bs = rv (flush_ic s)) \/
  (blockmode (md s) /\ bs = rv (failed_block (ob s) R_EOF :: out_rev s)).
Proof.
  unfold finish. destruct (md s); try discriminate; intros [= <-];
    [left; split; reflexivity | right; split; [exact I | reflexivity] ..].
Qed.

Inductive good_head : list (ch * option mk) -> Prop :=
| gh_lb c l : good_head ((c, Some MLB) :: l)
| gh_plain c l : good_head l -> good_head ((c, None) :: l).

Lemma good_after_blanks r :
  match drop_while is_sptab r with c :: _ => (c =? c_lb) = true | [] => False end -> good_head (classify false r).
Proof.
  induction r as [|c r IH]; simpl; intros H; [contradiction|].
  destruct (is_sptab c) eqn:S.
  - rewrite (sptab_plain false c r S), (sptab_not_bs c S). apply gh_plain, IH, H.
  - apply N.eqb_eq in H. subst c. apply gh_lb.
Qed.

Lemma good_after_words r : at_ok r = true -> good_head (classify false r).
Proof.
  unfold at_ok. induction r as [|c r IH]; simpl; intros H; [discriminate|].
  destruct (isword c) eqn:W.
  - rewrite (word_plain false c r W), (word_not_bs c W). apply gh_plain, IH, H.
  - (* the blanks start here *)
    apply (good_after_blanks (c :: r)). destruct (drop_while is_sptab (c :: r)) as [|d l]; [discriminate | exact H].
Qed.

(* the look-ahead of the mark regex guarantees an opening-brace mark after every At mark *)
Theorem at_then_brace pb c r : classify1 pb c r = Some MAt -> good_head (classify (c =? c_bs) r).
Proof.
  intros E. apply at_mark_spec in E as [-> Ha]. apply good_after_words, Ha.
Qed.

(* the invariant: not crashed, and in Head mode the rest of the input begins with plain* '{' *)
Definition ok (s : st) (l : list (ch * option mk)) : Prop :=
  md s <> Crashed /\ (md s = Head -> good_head l).

Lemma step_ok s c k l :
  ok s ((c, k) :: l) ->
  (k = Some MAt -> good_head l) ->
  ok (step s (c, k)) l.
Proof.
  intros [Hc Hh] Hat. rewrite step_action. pose proof (action_fits (md s) k (head_ty (ob s))) as F.
  assert (Hout : forall s', md s' = match k with Some MAt => Head | _ => Out end -> ok s' l).
  { intros s' E. unfold ok. rewrite E. destruct k as [[]|]; (split; [discriminate|]); try discriminate.
    intros _. apply Hat. reflexivity. }
  destruct (action_of _ _ _) as [ | | |m' u|u|kd u|r]; cbn [fits] in F.
  - contradiction.
  - apply Hout, step_out_md.
  - (* Head wants plain* '{' *)
    destruct F as (M & K1 & K2). specialize (Hh M). inversion Hh; subst; congruence.
  - destruct F as (_ & B & _ & Hd & _). split; cbn [perform upd md]; [intros ->; exact B|].
    intros M. destruct (Hd M) as [M' ->]. specialize (Hh M'). inversion Hh; subst. assumption.
  - destruct F as (_ & M & _). split; [exact Hc|]. cbn [perform upd_nl md]. intros M'. contradiction.
  - destruct kd; split; discriminate.
  - apply Hout, abort_md.
Qed.

Lemma run_ok r : forall pb s, ok s (classify pb r) ->
  let s' := fold_left step (classify pb r) s in md s' <> Crashed /\ md s' <> Head.
Proof.
  induction r as [|c r IH]; intros pb s Hok; cbn [classify fold_left].
  - destruct Hok as [Hc Hh]. split; [exact Hc|]. intros E. specialize (Hh E). inversion Hh.
  - apply IH, step_ok; [exact Hok | apply at_then_brace].
Qed.

Lemma run_md t : md (run t) <> Crashed /\ md (run t) <> Head.
Proof. apply run_ok. split; discriminate. Qed.

Theorem split_raw_total t : exists bs, split_raw t = Blocks bs.
Proof.
  unfold split_raw, finish. destruct (run_md t) as [A B].
  destruct (md (run t)); try contradiction; eauto.
Qed.

Theorem split_total t : exists bs, split t = Blocks bs.
Proof.
  unfold split. destruct (split_raw_total t) as [bs E]. rewrite E. eauto.
Qed.

(* A property P holds of every block the machine emits as soon as it holds of implicit comments, failed blocks
   and braces blocks, and of the entry built from an open block with Q, where Q holds of a fresh open block and
   is kept by the eight updates. *)
Section Emitted.
  Variables (Q : openb -> Prop) (P : block -> Prop).
  Hypotheses (Q0 : forall ln c, Q (ob0 ln c)) (Qupd : forall u c ln o, Q o -> Q (ob_upd u c ln o))
             (Pimpl : forall l c, P (BImpl (mkhdr (Some l) (Some c) []) c)) (Pfailed : forall o r, P (failed_block o r))
             (Pbraces : forall kd o, P (braces_block kd o)) (Pentry : forall o, Q o -> P (entry_block o)).

  Definition emits (s : st) : Prop := Q (ob s) /\ Forall P (out_rev s).

  Lemma flush_emits s : Forall P (out_rev s) -> Forall P (flush_ic s).
  Proof.
    intros H. destruct (flush_ic_cases s) as [-> | (l & c & ->)]; [exact H | constructor; [apply Pimpl | exact H]].
  Qed.

  Lemma step_out_emits s c k : emits s -> emits (step_out s c k).
  Proof.
    intros [A B]. destruct k as [[]|]; cbn [step_out]; try (split; assumption).
    split; [apply Q0 | apply flush_emits, B].
  Qed.

  Lemma step_emits s ck : emits s -> emits (step s ck).
  Proof.
    intros [A B]. destruct ck as [c k]. rewrite step_action.
    destruct (action_of _ _ _) as [ | | |m' u|u|[kd|] u|r]; cbn [perform].
    - split; assumption.
    - apply step_out_emits. split; assumption.
    - split; assumption.
    - split; [apply Qupd, A | exact B].
    - split; [apply Qupd, A | exact B].
    - split; [exact A | constructor; [apply Pbraces | exact B]].
    - split; [exact A | constructor; [apply Pentry, Qupd, A | exact B]].
    - apply step_out_emits. split; [exact A | constructor; [apply Pfailed | exact B]].
  Qed.

  Lemma run_emits t : emits (run t).
  Proof.
    assert (H : forall l s, emits s -> emits (fold_left step l s))
      by (induction l as [|ck l IH]; intros s Hs; [exact Hs | apply IH, step_emits, Hs]).
    apply H. split; [apply Q0 | constructor].
  Qed.

  Theorem split_raw_emits t bs : split_raw t = Blocks bs -> Forall P bs.
  Proof.
    intros F. destruct (run_emits t) as [_ B].
    destruct (finish_blocks _ _ F) as [[_ ->]|[_ ->]]; rewrite rv_rev; apply Forall_rev.
    - apply flush_emits, B.
    - constructor; [apply Pfailed | exact B].
  Qed.
End Emitted.

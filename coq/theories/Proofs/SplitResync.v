(* C04: malformed blocks never damage neighbours (splitter machine).

   RESYNC            arbitrary text x, then a line starting with a block-start mark: the blocks of
                     x ++ "\n" ++ d end with exactly the blocks of d alone, shifted by the lines before d.
   PREFIX STABILITY  once the machine has just closed a block, following text does not change the blocks
                     already emitted.
   CONCATENATION     both together: the blocks of p ++ "\n" ++ d are the blocks of p, then those of d shifted.

   Proof ingredients:
   - [classify_app]: the classification of a ++ b is (a classified with look-ahead into b) ++ classify _ b;
     the second part is literally a [classify] of b, the look-behind being the last character of a;
   - a simulation [sim k pre s1 s2] between two runs of the machine over the same classified characters, the
     first one k lines further down and with the blocks [pre] already emitted; dead registers (the implicit
     comment in block modes, the open block in Out mode, f_line outside FldVal) are left unconstrained;
   - every transition on an At mark from a mode other than Head/Crashed lands in Head with a fresh open block;
     Head/Crashed are excluded right before an At mark by the invariant of Proofs/SplitTotal.v;
   - [out_rev] is append-only; the classification of a prefix ending in '}' does not depend on what follows. *)
From Coq Require Import List NArith ZArith Bool Lia String.
From BP Require Import Base.Chars Model.Blocks Model.Lexer Model.Splitter Spec.C03 Spec.C04
                       Proofs.SplitTotal Proofs.SplitTiling.
Import ListNotations.
Local Open Scope Z_scope.

(* the characters of a classified inside a ++ b *)
Fixpoint classify_pre (pb : bool) (a b : str) : list (ch * option mk) :=
  match a with
  | [] => []
  | c :: a' => (c, classify1 pb c (a' ++ b)) :: classify_pre (c =? c_bs)%N a' b
  end.
(* the look-behind seen by the first character after a (Model/Grammar.v has the same function as ends_bs) *)
Fixpoint last_bs (pb : bool) (a : str) : bool :=
  match a with [] => pb | c :: a' => last_bs (c =? c_bs)%N a' end.

Lemma classify_app a : forall pb b,
  classify pb (a ++ b) = classify_pre pb a b ++ classify (last_bs pb a) b.
Proof.
  induction a as [|c a IH]; intros pb b; cbn [app classify classify_pre last_bs]; [reflexivity|].
  rewrite IH. reflexivity.
Qed.

Lemma last_bs_snoc a : forall pb c, last_bs pb (a ++ [c]) = (c =? c_bs)%N.
Proof. induction a as [|x a IH]; intros pb c; cbn [app last_bs]; [reflexivity | apply IH]. Qed.

Lemma classify_pre_ckok a : forall pb b, Forall ckok (classify_pre pb a b).
Proof.
  induction a as [|c a IH]; intros pb b; cbn [classify_pre]; constructor; [apply classify1_ckok | apply IH].
Qed.

Lemma classify_pre_fst a : forall pb b, map fst (classify_pre pb a b) = a.
Proof. induction a as [|c a IH]; intros pb b; cbn [classify_pre map fst]; [reflexivity | rewrite IH; reflexivity]. Qed.

(* the invariant of SplitTotal carried over a prefix of a classify output *)
Lemma pre_ok a : forall pb s b,
  ok s (classify pb (a ++ b)) ->
  ok (fold_left step (classify_pre pb a b) s) (classify (last_bs pb a) b).
Proof.
  induction a as [|c a IH]; intros pb s b H; cbn [classify_pre fold_left last_bs app] in *; [exact H|].
  apply IH. cbn [classify] in H.
  apply step_ok; [exact H | apply at_then_brace].
Qed.

(* the state after the prefix a of the text a ++ b *)
Definition run_pre (a b : str) : st := fold_left step (classify_pre false (c_nl :: a) b) st0.

Lemma run_app a b : run (a ++ b) = fold_left step (classify (last_bs false (c_nl :: a)) b) (run_pre a b).
Proof.
  unfold run, run_pre. change (c_nl :: a ++ b) with ((c_nl :: a) ++ b).
  rewrite classify_app, fold_left_app. reflexivity.
Qed.

Lemma run_pre_ok a b : ok (run_pre a b) (classify (last_bs false (c_nl :: a)) b).
Proof. apply pre_ok. split; discriminate. Qed.

(* the C03 invariant there, and the line counter it gives *)
Lemma run_pre_inv a b : Inv (run_pre a b) (c_nl :: a).
Proof.
  pose proof (run_inv (classify_pre false (c_nl :: a) b) st0 [] (classify_pre_ckok _ _ _) inv_st0) as H.
  rewrite classify_pre_fst in H. exact H.
Qed.

Lemma nl_not_bs : (c_nl =? c_bs)%N = false.  Proof. reflexivity. Qed.

Lemma classify_nl_at r : at_ok r = true ->
  classify false (c_nl :: c_at :: r) = (c_nl, Some MNL) :: (c_at, Some MAt) :: classify false r.
Proof. intros H. cbn [classify]. rewrite classify1_at, H. reflexivity. Qed.

Lemma rv_map {A B} (f : A -> B) l : rv (map f l) = map f (rv l).
Proof. rewrite !rv_rev. symmetry. apply map_rev. Qed.

(* an open block k lines further down, with field line f *)
Definition shift_ob (k f : Z) (o : openb) : openb :=
  mkob (b_line o + k) (raw_rev o) (typ_rev o) (a_rev o) (v_rev o) (etyp o) (ekey o) f
       (map (shiftf k) (flds_rev o)) (seen o) (dups o).

(* the open blocks of two runs, the first k lines further down; its field line is shifted too when live (fl) *)
Definition sim_ob (fl : Prop) (k : Z) (o1 o2 : openb) : Prop :=
  o1 = shift_ob k (f_line o1) o2 /\ (fl -> f_line o1 = f_line o2 + k).

(* every update commutes with the shift; the field line is shifted whenever it is live afterwards *)
Lemma so_upd m kk m' u k c l1 l2 o1 o2 : upd_fits m kk m' u -> l1 = l2 + k ->
  sim_ob (in_value m) k o1 o2 -> sim_ob (in_value m') k (ob_upd u c l1 o1) (ob_upd u c l2 o2).
Proof.
  intros U -> [E Hf]. remember (f_line o1) as f eqn:Ef. clear Ef. subst o1.
  (* UField, the last case: the completed field takes the line of its '=', which is live *)
  destruct u; cbn [upd_fits] in U; [.. | destruct U as [V _]; rewrite (Hf V)]; (split; [reflexivity|]);
    cbn [ob_upd ob_raw ob_raw_typ ob_raw_a ob_raw_v ob_open ob_key ob_eq shift_ob f_line]; auto.
Qed.

Lemma so_ob0 (fl : Prop) k l1 l2 c : l1 = l2 + k -> ~ fl -> sim_ob fl k (ob0 l1 c) (ob0 l2 c).
Proof. intros -> Hf. split; [reflexivity|]. intros V. destruct (Hf V). Qed.

Lemma entry_shift fl k o1 o2 : sim_ob fl k o1 o2 -> entry_block o1 = shiftb k (entry_block o2).
Proof.
  intros [-> _]. unfold entry_block. cbn [shift_ob dups etyp ekey flds_rev]. rewrite rv_map.
  destruct (dups o2); reflexivity.
Qed.

Lemma braces_shift fl k kd o1 o2 : sim_ob fl k o1 o2 -> braces_block kd o1 = shiftb k (braces_block kd o2).
Proof. intros [-> _]. destruct kd; reflexivity. Qed.

Lemma failed_shift fl k rs o1 o2 : sim_ob fl k o1 o2 -> failed_block o1 rs = shiftb k (failed_block o2 rs).
Proof. intros [-> _]. reflexivity. Qed.

Lemma end_implicit_shift text l k : end_implicit text (l + k) = option_map (shiftb k) (end_implicit text l).
Proof.
  unfold end_implicit. destruct (skip_leading text 0) as [rest n]. destruct (rstrip rest) as [|x y]; [reflexivity|].
  cbn [option_map shiftb shifth sl raw meta shift_opt]. replace (l + k + n) with (l + n + k) by lia. reflexivity.
Qed.

Definition sim (k : Z) (pre : list block) (s1 s2 : st) : Prop :=
  md s1 = md s2 /\ line s1 = line s2 + k /\ out_rev s1 = map (shiftb k) (out_rev s2) ++ pre /\
  (md s2 = Out -> ic_rev s1 = ic_rev s2 /\ ic_line s1 = ic_line s2 + k) /\
  (blockmode (md s2) -> sim_ob (in_value (md s2)) k (ob s1) (ob s2)).

Lemma flush_sim k pre s1 s2 :
  out_rev s1 = map (shiftb k) (out_rev s2) ++ pre -> ic_rev s1 = ic_rev s2 -> ic_line s1 = ic_line s2 + k ->
  flush_ic s1 = map (shiftb k) (flush_ic s2) ++ pre.
Proof.
  intros Ho Hi Hl. unfold flush_ic. rewrite Hi, Hl, end_implicit_shift, Ho.
  destruct (end_implicit (rv (ic_rev s2)) (ic_line s2)); reflexivity.
Qed.

Lemma sim_step_out k pre s1 s2 c kk :
  line s1 = line s2 + k -> out_rev s1 = map (shiftb k) (out_rev s2) ++ pre ->
  ic_rev s1 = ic_rev s2 -> ic_line s1 = ic_line s2 + k ->
  sim k pre (step_out s1 c kk) (step_out s2 c kk).
Proof.
  intros Hl Ho Hi Hil.
  assert (Keep : forall l1 l2, l1 = l2 + k ->
            sim k pre (mkst Out l1 (out_rev s1) (c :: ic_rev s1) (ic_line s1) (ob s1))
                      (mkst Out l2 (out_rev s2) (c :: ic_rev s2) (ic_line s2) (ob s2))).
  { intros l1 l2 E. unfold sim. cbn [md line out_rev ic_rev ic_line ob].
    split; [reflexivity|]. split; [exact E|]. split; [exact Ho|]. split; [|intros []].
    intros _. split; [rewrite Hi; reflexivity | exact Hil]. }
  destruct kk as [[]|]; cbn [step_out]; try (apply Keep; lia).
  unfold sim. cbn [md line out_rev ic_rev ic_line ob].
  split; [reflexivity|]. split; [exact Hl|]. split; [apply flush_sim; assumption|]. split; [discriminate|].
  intros _. apply so_ob0; [exact Hl | intros []].
Qed.

(* the block stays open, or the machine crashes *)
Lemma sim_open k pre s1 s2 m l1 l2 o1 o2 :
  sim k pre s1 s2 -> l1 = l2 + k -> m <> Out -> (blockmode m -> sim_ob (in_value m) k o1 o2) ->
  sim k pre (mkst m l1 (out_rev s1) (ic_rev s1) (ic_line s1) o1) (mkst m l2 (out_rev s2) (ic_rev s2) (ic_line s2) o2).
Proof.
  intros (_ & _ & Ho & _ & _) Hl Hn Hob. unfold sim. cbn [md line out_rev ic_rev ic_line ob].
  split; [reflexivity|]. split; [exact Hl|]. split; [exact Ho|]. split; [contradiction | exact Hob].
Qed.

Lemma sim_close k pre s1 s2 b1 b2 :
  sim k pre s1 s2 -> b1 = shiftb k b2 -> sim k pre (close_block s1 b1) (close_block s2 b2).
Proof.
  intros (Hm & Hl & Ho & _ & _) Hb. unfold sim, close_block. cbn [md line out_rev ic_rev ic_line ob].
  split; [reflexivity|]. split; [exact Hl|]. split; [rewrite Ho, Hb; reflexivity|].
  split; [intros _; split; [reflexivity | exact Hl] | intros []].
Qed.

Lemma sim_abort fl k pre s1 s2 rs c kk :
  sim k pre s1 s2 -> sim_ob fl k (ob s1) (ob s2) -> sim k pre (abort s1 rs c kk) (abort s2 rs c kk).
Proof.
  intros (Hm & Hl & Ho & _ & _) Hob. unfold abort.
  apply sim_step_out; cbn [md line out_rev ic_rev ic_line ob]; try assumption; try reflexivity.
  rewrite Ho, (failed_shift _ _ rs _ _ Hob). reflexivity.
Qed.

Lemma sim_step k pre s1 s2 ck : sim k pre s1 s2 -> sim k pre (step s1 ck) (step s2 ck).
Proof.
  intros H. pose proof H as (Hm & Hl & Ho & Hic & Hob). destruct ck as [c kk].
  (* both machines take the same action: the head type is read in Head mode only *)
  assert (Ea : action_of (md s2) kk (head_ty (ob s1)) = action_of (md s2) kk (head_ty (ob s2))).
  { destruct (md s2); try reflexivity. destruct (Hob I) as [E _]. unfold head_ty. rewrite E. reflexivity. }
  rewrite !step_action, Hm, Ea. clear Ea. pose proof (action_fits (md s2) kk (head_ty (ob s2))) as F.
  destruct (action_of _ _ _) as [ | | |m' u|u|kd u|r]; cbn [fits perform] in *.
  - exact H.
  - destruct (Hic F) as [Hi Hil]. apply sim_step_out; assumption.
  - apply sim_open; [exact H | exact Hl | discriminate | intros []].
  - destruct F as (B & B' & _ & _ & U).
    apply sim_open; [exact H | exact Hl | intros ->; exact B' | intros _; exact (so_upd _ _ _ _ _ c _ _ _ _ U Hl (Hob B))].
  - destruct F as (B & _ & _ & U). unfold upd_nl. rewrite Hm.
    apply sim_open; [exact H | lia | intros E; rewrite E in B; exact B |
                     intros _; exact (so_upd _ _ _ _ _ c _ _ _ _ U Hl (Hob B))].
  - destruct F as (B & _ & U). pose proof (so_upd _ _ _ _ _ c _ _ _ _ U Hl (Hob B)) as Hu.
    destruct kd as [kd|]; (apply sim_close; [exact H|]); [eapply braces_shift | eapply entry_shift]; exact Hu.
  - eapply sim_abort; [exact H | exact (Hob F)].
Qed.

Lemma sim_fold k pre l : forall s1 s2, sim k pre s1 s2 -> sim k pre (fold_left step l s1) (fold_left step l s2).
Proof. induction l as [|ck l IH]; intros s1 s2 H; cbn [fold_left]; [exact H | apply IH, sim_step, H]. Qed.

Lemma rv_shift_cons k pre b1 b2 o1 o2 :
  b1 = shiftb k b2 -> o1 = map (shiftb k) o2 ++ pre ->
  rv (b1 :: o1) = rev pre ++ map (shiftb k) (rv (b2 :: o2)).
Proof.
  intros -> ->. rewrite !rv_rev. change (shiftb k b2 :: map (shiftb k) o2 ++ pre) with (map (shiftb k) (b2 :: o2) ++ pre).
  rewrite rev_app_distr, map_rev. reflexivity.
Qed.

Lemma sim_finish k pre s1 s2 B B0 :
  sim k pre s1 s2 -> finish s1 = Blocks B -> finish s2 = Blocks B0 -> B = rev pre ++ map (shiftb k) B0.
Proof.
  intros (Hm & Hl & Ho & Hic & Hob) F1 F2.
  destruct (finish_blocks _ _ F1) as [[M1 ->]|[B1 ->]], (finish_blocks _ _ F2) as [[M2 ->]|[B2 ->]];
    rewrite Hm in *.
  - destruct (Hic M2) as [Hi Hil].
    rewrite (flush_sim k pre s1 s2 Ho Hi Hil), !rv_rev, rev_app_distr, map_rev. reflexivity.
  - rewrite M1 in B2. destruct B2.
  - rewrite M2 in B1. destruct B1.
  - apply rv_shift_cons; [eapply failed_shift; exact (Hob B2) | exact Ho].
Qed.

Lemma at_enters_head s c : md s <> Head -> md s <> Crashed ->
  exists o, step s (c, Some MAt) = mkst Head (line s) o [] (line s) (ob0 (line s) c).
Proof.
  intros H1 H2. unfold step. destruct (md s); try contradiction; try (eexists; reflexivity).
Qed.

(* the run of "@..." alone, after the artificial newline and the mark *)
Definition s_head0 : st := mkst Head 0 [] [] 0 (ob0 0 c_at).

Lemma run_d r : at_ok r = true -> run (c_at :: r) = fold_left step (classify false r) s_head0.
Proof. intros H. unfold run. rewrite (classify_nl_at r H). reflexivity. Qed.

(* from any state outside Head/Crashed: the rest of the run simulates the run of d alone *)
Lemma resync_core s1 r B B0 : md s1 <> Head -> md s1 <> Crashed -> at_ok r = true ->
  finish (fold_left step (classify false r) (step s1 (c_at, Some MAt))) = Blocks B ->
  split_raw (c_at :: r) = Blocks B0 ->
  B = rev (out_rev (step s1 (c_at, Some MAt))) ++ map (shiftb (line s1)) B0.
Proof.
  intros H1 H2 Ha F1 F2. unfold split_raw in F2. rewrite (run_d r Ha) in F2.
  destruct (at_enters_head s1 c_at H1 H2) as [o E]. rewrite E in *. cbn [out_rev].
  eapply sim_finish; [|exact F1 | exact F2]. apply sim_fold.
  unfold sim, s_head0. cbn [md line out_rev ic_rev ic_line ob map app].
  split; [reflexivity|]. split; [lia|]. split; [reflexivity|]. split; [discriminate|].
  intros _. apply so_ob0; [lia | intros []].
Qed.

Lemma last_bs_nl x : last_bs false (c_nl :: x ++ [c_nl]) = false.
Proof. change (c_nl :: x ++ [c_nl]) with ((c_nl :: x) ++ [c_nl]). rewrite last_bs_snoc. reflexivity. Qed.

Lemma count_nl_line x : -1 + count_nl (c_nl :: x ++ [c_nl]) = count_nl x + 1.
Proof. cbn [count_nl]. rewrite count_nl_app, count_nl_1, N.eqb_refl. lia. Qed.

(* strong form: [pre] is determined, and its raw texts tile exactly "\n" ++ x ++ "\n" (it accounts for x only) *)
Theorem resync_tiles : forall x r B B0, at_ok r = true ->
  split_raw (x ++ c_nl :: c_at :: r) = Blocks B -> split_raw (c_at :: r) = Blocks B0 ->
  exists pre items, B = pre ++ map (shiftb (count_nl x + 1)) B0 /\
    raw_lines pre = Some items /\ tiledL (-1) (c_nl :: x ++ [c_nl]) items.
Proof.
  intros x r B B0 Ha F1 F2.
  (* the state before the mark: x ++ "\n" consumed *)
  set (s1 := run_pre (x ++ [c_nl]) (c_at :: r)).
  destruct (run_pre_ok (x ++ [c_nl]) (c_at :: r)) as [Hc Hh]. fold s1 in Hc, Hh.
  pose proof (run_pre_inv (x ++ [c_nl]) (c_at :: r)) as I1. fold s1 in I1.
  unfold split_raw in F1. replace (x ++ c_nl :: c_at :: r) with ((x ++ [c_nl]) ++ c_at :: r) in F1
    by (rewrite <- app_assoc; reflexivity).
  rewrite run_app in F1. fold s1 in F1. rewrite last_bs_nl in Hh, F1.
  cbn [classify fold_left] in Hh, F1. rewrite classify1_at, Ha in Hh, F1.
  assert (Hnh : md s1 <> Head) by (intros M; specialize (Hh M); inversion Hh).
  pose proof (resync_core s1 r B B0 Hnh Hc Ha F1 F2) as HB.
  rewrite (inv_line _ _ I1 Hc), count_nl_line in HB.
  exists (rev (out_rev (step s1 (c_at, Some MAt)))).
  (* tiling of pre: the C03 invariant after the mark *)
  assert (Hck : ckok (c_at, Some MAt)).
  { split; cbn [fst snd]; [split; intros X; discriminate X | intros X; discriminate X]. }
  pose proof (step_inv s1 _ c_at (Some MAt) Hck I1) as I2.
  destruct (at_enters_head s1 c_at Hnh Hc) as [o Eo]. rewrite Eo in *. unfold Inv in I2. cbn [md] in I2.
  destruct I2 as ((P & items & K1 & K2 & K3 & _) & _). cbn [out_rev ob ob0 raw_rev rev app] in K1, K2.
  change (c_nl :: (x ++ [c_nl]) ++ [c_at]) with ((c_nl :: x ++ [c_nl]) ++ [c_at]) in K1.
  apply app_inj_tail in K1 as [K1 _]. subst P.
  exists items. split; [exact HB|]. split; [exact K2 | exact K3].
Qed.

Theorem resync : forall x r B B0, at_ok r = true ->
  split_raw (x ++ c_nl :: c_at :: r) = Blocks B -> split_raw (c_at :: r) = Blocks B0 ->
  exists pre, B = pre ++ map (shiftb (count_nl x + 1)) B0.
Proof.
  intros x r B B0 Ha F1 F2. destruct (resync_tiles x r B B0 Ha F1 F2) as (pre & _ & H & _).
  exists pre. exact H.
Qed.

Lemma flush_ext s : exists new, flush_ic s = new ++ out_rev s.
Proof.
  destruct (flush_ic_cases s) as [-> | (l & c & ->)]; [exists [] | eexists [_]]; reflexivity.
Qed.

Lemma step_out_ext s c k : exists new, out_rev (step_out s c k) = new ++ out_rev s.
Proof.
  destruct k as [[]|]; cbn [step_out out_rev]; try (exists []; reflexivity). apply flush_ext.
Qed.

Lemma abort_ext s rs c k : exists new, out_rev (abort s rs c k) = new ++ out_rev s.
Proof.
  unfold abort. destruct (step_out_ext (mkst Out (line s) (failed_block (ob s) rs :: out_rev s) [] (line s) (ob s)) c k)
    as [new E]. rewrite E. cbn [out_rev]. exists (new ++ [failed_block (ob s) rs]). rewrite <- app_assoc. reflexivity.
Qed.

Lemma step_ext s ck : exists new, out_rev (step s ck) = new ++ out_rev s.
Proof.
  destruct ck as [c k]. rewrite step_action.
  destruct (action_of _ _ _) as [ | | | | |[kd|] u| ]; cbn [perform];
    first [ apply step_out_ext | apply abort_ext | exists []; reflexivity | eexists [_]; reflexivity ].
Qed.

Lemma fold_ext l : forall s, exists new, out_rev (fold_left step l s) = new ++ out_rev s.
Proof.
  induction l as [|ck l IH]; intros s; cbn [fold_left]; [exists []; reflexivity|].
  destruct (IH (step s ck)) as [n1 E1]. destruct (step_ext s ck) as [n2 E2].
  exists (n1 ++ n2). rewrite E1, E2, app_assoc. reflexivity.
Qed.

Lemma finish_ext s bs : finish s = Blocks bs -> exists extra, bs = rev (out_rev s) ++ extra.
Proof.
  intros F. destruct (finish_blocks _ _ F) as [[_ ->]|[_ ->]]; rewrite rv_rev.
  - destruct (flush_ext s) as [new ->]. rewrite rev_app_distr. eexists. reflexivity.
  - cbn [rev]. eexists. reflexivity.
Qed.

(* the machine has just closed a block: finish yields exactly the emitted blocks *)
Definition closed (s : st) : Prop := md s = Out /\ ic_rev s = [].

Lemma finish_closed s : closed s -> finish s = Blocks (rev (out_rev s)).
Proof. intros [M I0]. unfold finish, flush_ic. rewrite M, I0, rv_rev. reflexivity. Qed.

Lemma classify1_same_at pb c r1 r2 : at_ok r1 = at_ok r2 -> classify1 pb c r1 = classify1 pb c r2.
Proof. intros H. unfold classify1. rewrite H. reflexivity. Qed.

Lemma classify1_rb_any pb r1 r2 : classify1 pb c_rb r1 = classify1 pb c_rb r2.
Proof. destruct pb; reflexivity. Qed.

Lemma classify_pre_closed u b : forall pb, classify_pre pb (u ++ [c_rb]) b = classify pb (u ++ [c_rb]).
Proof.
  induction u as [|c u IH]; intros pb; cbn [app classify_pre classify].
  - rewrite (classify1_rb_any pb b []). reflexivity.
  - rewrite IH, <- app_assoc. cbn [app].
    rewrite (classify1_same_at pb c _ _ (at_ok_stop u c_rb b eq_refl eq_refl)). reflexivity.
Qed.

(* the run over p ++ x continues the run over p when p ends with '}' *)
Lemma run_app_closed p' x : run ((p' ++ [c_rb]) ++ x) = fold_left step (classify false x) (run (p' ++ [c_rb])).
Proof.
  rewrite run_app. unfold run_pre, run. change (c_nl :: p' ++ [c_rb]) with ((c_nl :: p') ++ [c_rb]).
  rewrite classify_pre_closed, last_bs_snoc. reflexivity.
Qed.

Theorem prefix_stable : forall p x Bp,
  md (run p) = Out -> ic_rev (run p) = [] -> (exists p', p = p' ++ [c_rb]) ->
  split_raw p = Blocks Bp -> exists rest, split_raw (p ++ x) = Blocks (Bp ++ rest).
Proof.
  intros p x Bp M I0 [p' ->] F.
  unfold split_raw in F. rewrite (finish_closed _ (conj M I0)) in F. inversion F; subst Bp. clear F.
  destruct (split_raw_total ((p' ++ [c_rb]) ++ x)) as [bs E]. rewrite E.
  unfold split_raw in E. rewrite run_app_closed in E.
  destruct (finish_ext _ _ E) as [extra ->].
  destruct (fold_ext (classify false x) (run (p' ++ [c_rb]))) as [new En]. rewrite En.
  rewrite rev_app_distr, <- app_assoc. eexists. reflexivity.
Qed.

(* a closed state is reached by a '}' mark only, so the hypothesis "p ends with '}'" follows from the other two *)
Lemma step_out_not_closed s c k : ~ closed (step_out s c k).
Proof. destruct k as [[]|]; cbn [step_out]; intros [A B]; discriminate. Qed.

Lemma closed_by_rb s c k : closed (step s (c, k)) -> k = Some MRB.
Proof.
  rewrite step_action. pose proof (action_fits (md s) k (head_ty (ob s))) as F.
  destruct (action_of _ _ _) as [ | | |m' u|u|kd u|r]; cbn [fits] in F; cbn [perform]; intros [A B].
  - congruence.
  - destruct (step_out_not_closed _ _ _ (conj A B)).
  - discriminate A.
  - cbn [upd md] in A. subst m'. destruct F as (_ & [] & _).
  - cbn [upd_nl md] in A. rewrite A in F. destruct F as ([] & _).
  - apply F.
  - destruct (step_out_not_closed _ _ _ (conj A B)).
Qed.

Lemma closed_ends_rb p : closed (run p) -> exists p', p = p' ++ [c_rb].
Proof.
  destruct (exists_last (l := c_nl :: p)) as (q & e & E); [discriminate|].
  unfold run. rewrite E, classify_app, fold_left_app. cbn [classify fold_left].
  intros A. apply closed_by_rb, classify1_char in A. subst e.
  destruct q as [|c0 q]; cbn [app] in E; inversion E. exists q. reflexivity.
Qed.

Corollary prefix_stable' : forall p x Bp,
  md (run p) = Out -> ic_rev (run p) = [] ->
  split_raw p = Blocks Bp -> exists rest, split_raw (p ++ x) = Blocks (Bp ++ rest).
Proof. intros p x Bp M I0. apply prefix_stable; [exact M | exact I0 | apply closed_ends_rb; split; assumption]. Qed.

Theorem concat : forall p r Bp B0,
  md (run p) = Out -> ic_rev (run p) = [] -> (exists p', p = p' ++ [c_rb]) -> at_ok r = true ->
  split_raw p = Blocks Bp -> split_raw (c_at :: r) = Blocks B0 ->
  split_raw (p ++ c_nl :: c_at :: r) = Blocks (Bp ++ map (shiftb (count_nl p + 1)) B0).
Proof.
  intros p r Bp B0 M I0 [p' Ep] Ha Fp F0.
  unfold split_raw in Fp. rewrite (finish_closed _ (conj M I0)) in Fp. inversion Fp; subst Bp. clear Fp.
  destruct (split_raw_total (p ++ c_nl :: c_at :: r)) as [B E]. rewrite E. f_equal.
  unfold split_raw in E. rewrite Ep, run_app_closed, <- Ep in E.
  rewrite (classify_nl_at r Ha) in E. cbn [fold_left] in E.
  set (s1 := step (run p) (c_nl, Some MNL)) in *.
  assert (Es1 : s1 = mkst Out (line (run p) + 1) (out_rev (run p)) [c_nl] (ic_line (run p)) (ob (run p))).
  { unfold s1, step. rewrite M. cbn [step_out]. rewrite I0. reflexivity. }
  assert (M1 : md s1 = Out) by (rewrite Es1; reflexivity).
  pose proof (resync_core s1 r B B0) as HB.
  rewrite M1 in HB. specialize (HB ltac:(discriminate) ltac:(discriminate) Ha E F0).
  rewrite HB. f_equal.
  - unfold step. rewrite M1. cbn [step_out out_rev]. unfold flush_ic. rewrite Es1. cbn [ic_rev ic_line out_rev].
    reflexivity.
  - rewrite Es1. cbn [line]. rewrite run_line. reflexivity.
Qed.

Corollary concat' : forall p r Bp B0,
  md (run p) = Out -> ic_rev (run p) = [] -> at_ok r = true ->
  split_raw p = Blocks Bp -> split_raw (c_at :: r) = Blocks B0 ->
  split_raw (p ++ c_nl :: c_at :: r) = Blocks (Bp ++ map (shiftb (count_nl p + 1)) B0).
Proof. intros p r Bp B0 M I0. apply concat; [exact M | exact I0 | apply closed_ends_rb; split; assumption]. Qed.

Definition ex_x : str := lit "@a{k, t = ""unclosed {".
Definition ex_r : str := lit "b{j, u = {v}}".
Definition ex_p : str := lit "junk @s{k,
  t = {v}}".

Example ex_r_ok : at_ok ex_r = true.
Proof. vm_compute. reflexivity. Qed.

(* garbage (an entry with an unterminated quoted value containing an open brace), then a block *)
Example ex_resync : exists f e,
  split_raw (ex_x ++ c_nl :: c_at :: ex_r) = Blocks [f; shiftb 1 e] /\
  split_raw (c_at :: ex_r) = Blocks [e] /\
  class_of f = CFailed /\ class_of e = CEntry /\ sl (bhdr e) = Some 0 /\ sl (bhdr (shiftb 1 e)) = Some 1.
Proof.
  (* each equation is evaluated on its own; the second one gives e *)
  do 2 eexists. split; [|split; [vm_compute; reflexivity|]]; [vm_compute; reflexivity|].
  repeat (split; [vm_compute; reflexivity|]). vm_compute. reflexivity.
Qed.

Example ex_resync_thm : forall B B0,
  split_raw (ex_x ++ c_nl :: c_at :: ex_r) = Blocks B -> split_raw (c_at :: ex_r) = Blocks B0 ->
  exists pre, B = pre ++ map (shiftb 1) B0.
Proof. intros B B0. apply (resync ex_x ex_r B B0 ex_r_ok). Qed.

(* a closed prefix (free text, then a two-line entry) *)
Example ex_p_closed : md (run ex_p) = Out /\ ic_rev (run ex_p) = [] /\ (exists p', ex_p = p' ++ [c_rb]) /\ count_nl ex_p = 1.
Proof.
  split; [vm_compute; reflexivity|]. split; [vm_compute; reflexivity|]. split; [|vm_compute; reflexivity].
  apply closed_ends_rb; split; vm_compute; reflexivity.
Qed.

Example ex_prefix : exists i e rest,
  split_raw ex_p = Blocks [i; e] /\ split_raw (ex_p ++ ex_x) = Blocks ([i; e] ++ rest) /\
  class_of i = CImpl /\ class_of e = CEntry /\ rest <> [].
Proof. do 3 eexists. repeat (split; [vm_compute; reflexivity|]). discriminate. Qed.

Example ex_concat : exists i e e',
  split_raw ex_p = Blocks [i; e] /\ split_raw (c_at :: ex_r) = Blocks [e'] /\
  split_raw (ex_p ++ c_nl :: c_at :: ex_r) = Blocks ([i; e] ++ map (shiftb 2) [e']) /\
  sl (bhdr (shiftb 2 e')) = Some 2.
Proof. do 3 eexists. repeat (split; [vm_compute; reflexivity|]). vm_compute. reflexivity. Qed.

Print Assumptions resync_tiles.
Print Assumptions resync.
Print Assumptions prefix_stable.
Print Assumptions prefix_stable'.
Print Assumptions concat.
Print Assumptions concat'.

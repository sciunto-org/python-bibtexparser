(* C05: RemoveEnclosing on the rendered values of the dialect.  One braced / quoted piece loses exactly
   its delimiters; every other value (bare, concatenation) is kept whole.  What is left can stand between braces
   again: it is a brace content (read off the splitter's brace scan), and side condition G holds of it whatever
   the writer puts behind it. *)
From Coq Require Import List NArith ZArith Bool Lia String.
From BP Require Import Base.Chars Model.Enclosing Model.Lexer Model.Grammar Spec.C14Stack Proofs.EnclosingProofs
  Proofs.SplitGrammar Proofs.SplitTiling.
Import ListNotations.
Local Open Scope Z_scope.

Lemma ceq_N a b : ceq a b = (a =? b)%N.
Proof. reflexivity. Qed.

(* brace contents as texts.  [bscan] (Spec/C14Stack.v) is the splitter's reading of the braces of a value: a brace is
   active unless it follows a backslash.  A text it reads as balanced and that does not end in a backslash ([brace_ok])
   is exactly the render of a well-formed brace content of the grammar. *)
Lemma bscan_app a : forall pb d b,
  bscan pb d (a ++ b) = match bscan pb d a with Some (pb', d') => bscan pb' d' b | None => None end.
Proof.
  induction a as [|c a IH]; intros pb d b; cbn [app bscan]; [reflexivity|].
  destruct (negb pb && (c =? c_lb)%N); [apply IH|].
  destruct (negb pb && (c =? c_rb)%N); [destruct d; [reflexivity | apply IH] | apply IH].
Qed.

Lemma bscan_ends s : forall pb d pb' d', bscan pb d s = Some (pb', d') -> pb' = ends_bs pb s.
Proof.
  induction s as [|c s IH]; intros pb d pb' d' H; cbn [bscan ends_bs] in *.
  - inversion H; reflexivity.
  - destruct (negb pb && (c =? c_lb)%N) eqn:E1.
    + apply andb_true_iff in E1 as [_ E1]. apply N.eqb_eq in E1. subst c. exact (IH _ _ _ _ H).
    + destruct (negb pb && (c =? c_rb)%N) eqn:E2; [|exact (IH _ _ _ _ H)].
      apply andb_true_iff in E2 as [_ E2]. apply N.eqb_eq in E2. subst c.
      destruct d as [|d0]; [discriminate|]. exact (IH _ _ _ _ H).
Qed.

(* the character is no active brace: what wf_braced asks of a BChar, in the scan's terms *)
Lemma delim_inactive pb c :
  match delim pb c with Some MLB | Some MRB => false | _ => true end
  = negb (negb pb && (c =? c_lb)%N) && negb (negb pb && (c =? c_rb)%N).
Proof.
  unfold delim. destruct (c =? c_nl)%N eqn:En; [apply N.eqb_eq in En; subst c; destruct pb; reflexivity|].
  destruct pb; [reflexivity|]. cbn [negb andb]. destruct (c =? c_lb)%N; [reflexivity|]. destruct (c =? c_rb)%N; [reflexivity|].
  destruct (c =? c_quote)%N; [reflexivity|]. destruct (c =? c_comma)%N; [reflexivity|]. destruct (c =? c_eq)%N; reflexivity.
Qed.

(* the contents still open when the scan stops: each is closed by a '}' further on *)
Fixpoint closes (rest : list braced) : str :=
  match rest with [] => [] | x :: r => c_rb :: render_braced x ++ closes r end.

Lemma bscan_ast s : forall pb d, bscan pb d s = Some (false, O) ->
  exists b rest, List.length rest = d /\ wf_braced pb b = true /\ Forall (fun x => wf_braced false x = true) rest
                 /\ s = render_braced b ++ closes rest.
Proof.
  induction s as [|c s IH]; intros pb d H; cbn [bscan] in H.
  - inversion H; subst. exists BNil, []. repeat split. constructor.
  - pose proof (delim_inactive pb c) as Dc.
    destruct (negb pb && (c =? c_lb)%N) eqn:E1.
    + apply andb_true_iff in E1 as [Ep E1]. apply N.eqb_eq in E1. subst c. apply negb_true_iff in Ep. subst pb.
      destruct (IH _ _ H) as (b1 & rest1 & L & W1 & F & E). destruct rest1 as [|x rest']; [discriminate|].
      inversion F as [|? ? Wx F']; subst. exists (BGroup b1 x), rest'. split; [injection L; auto|].
      split; [cbn [wf_braced negb andb]; rewrite W1, Wx; reflexivity|]. split; [exact F'|].
      cbn [render_braced closes app]. rewrite <- app_assoc. reflexivity.
    + destruct (negb pb && (c =? c_rb)%N) eqn:E2.
      * apply andb_true_iff in E2 as [Ep E2]. apply N.eqb_eq in E2. subst c. apply negb_true_iff in Ep. subst pb.
        destruct d as [|d0]; [discriminate|].
        destruct (IH _ _ H) as (b1 & rest1 & L & W1 & F & E). exists BNil, (b1 :: rest1).
        split; [cbn [List.length]; f_equal; exact L|]. split; [reflexivity|]. split; [constructor; assumption|].
        cbn [render_braced closes app]. rewrite E. reflexivity.
      * destruct (IH _ _ H) as (b1 & rest1 & L & W1 & F & E). exists (BChar c b1), rest1.
        split; [exact L|]. split; [cbn [wf_braced]; rewrite Dc, W1; reflexivity|].
        split; [exact F|]. cbn [render_braced app]. rewrite E. reflexivity.
Qed.

Theorem brace_ok_ast s : brace_ok s = true -> exists b, render_braced b = s /\ wf_braced false b = true.
Proof.
  unfold brace_ok. intros H. destruct (bscan false 0 s) as [[[|] [|n]]|] eqn:E; try discriminate.
  destruct (bscan_ast s false 0 E) as (b & rest & L & W & _ & Es). destruct rest; [|discriminate].
  cbn [closes] in Es. rewrite app_nil_r in Es. exists b. split; [symmetry; exact Es | exact W].
Qed.

(* ... and conversely *)
Lemma bscan_render b : forall pb d k, wf_braced pb b = true ->
  bscan pb d (render_braced b ++ k) = bscan false d k.
Proof.
  induction b as [|c b IH|g IHg b IH]; intros pb d k W; cbn [wf_braced render_braced app] in *.
  - apply negb_true_iff in W. subst pb. reflexivity.
  - apply andb_true_iff in W as [W1 W2]. rewrite delim_inactive in W1. apply andb_true_iff in W1 as [A1 A2].
    apply negb_true_iff in A1, A2. cbn [bscan]. rewrite A1, A2. apply IH. exact W2.
  - apply andb_true_iff in W as [W W3]. apply andb_true_iff in W as [W1 W2]. apply negb_true_iff in W1. subst pb.
    cbn [bscan negb andb]. rewrite N.eqb_refl. rewrite <- app_assoc. rewrite IHg by exact W2.
    cbn [app bscan negb andb]. change (c_rb =? c_lb)%N with false. rewrite N.eqb_refl. apply IH. exact W3.
Qed.

Theorem render_brace_ok b : wf_braced false b = true -> brace_ok (render_braced b) = true.
Proof.
  intros W. unfold brace_ok. rewrite <- (app_nil_r (render_braced b)), (bscan_render b false 0 [] W). reflexivity.
Qed.

Theorem brace_ok_iff s : brace_ok s = true <-> exists b, render_braced b = s /\ wf_braced false b = true.
Proof. split; [apply brace_ok_ast | intros (b & <- & W); apply render_brace_ok; exact W]. Qed.

(* a text without active delimiter leaves the depth alone *)
Lemma bscan_quiet s : forall pb d, quiet pb s = true -> bscan pb d s = Some (ends_bs pb s, d).
Proof.
  induction s as [|c s IH]; intros pb d Q; [reflexivity|]. cbn [quiet] in Q. apply andb_true_iff in Q as [Q1 Q2].
  assert (A : match delim pb c with Some MLB | Some MRB => false | _ => true end = true)
    by (destruct (delim pb c) as [[]|]; try reflexivity; discriminate).
  rewrite delim_inactive in A. apply andb_true_iff in A as [A1 A2]. apply negb_true_iff in A1, A2.
  cbn [bscan ends_bs]. rewrite A1, A2. apply IH, Q2.
Qed.

Definition chars (s : str) (k : braced) : braced := fold_right BChar k s.

(* quoted content is brace content: it has no active brace outside a group either *)
Fixpoint q2b (q : quoted) : braced :=
  match q with QNil => BNil | QChar c q' => BChar c (q2b q') | QGroup g q' => BGroup (q2b g) (q2b q') end.
Lemma render_q2b q : render_braced (q2b q) = render_quoted q.
Proof.
  induction q as [|c q IH|g IHg q IH]; cbn [q2b render_braced render_quoted]; [reflexivity | f_equal; exact IH|].
  rewrite IHg, IH. reflexivity.
Qed.
Lemma wf_q2b q : forall pb, wf_quoted pb q = true -> wf_braced pb (q2b q) = true.
Proof.
  induction q as [|c q IH|g IHg q IH]; intros pb W; cbn [q2b wf_quoted wf_braced] in *; [exact W| |].
  - apply andb_true_iff in W as [W1 W2]. rewrite (IH _ W2), andb_true_r. destruct (delim pb c) as [[]|]; try reflexivity; discriminate.
  - apply andb_true_iff in W as [W1 W3]. apply andb_true_iff in W1 as [W1 W2]. rewrite W1, (IHg _ W2), (IH _ W3). reflexivity.
Qed.
(* no active double quote *)
Fixpoint noq (pb : bool) (s : str) : bool :=
  match s with [] => true | c :: r => negb (negb pb && (c =? c_quote)%N) && noq (c =? c_bs)%N r end.

Lemma wf_quoted_noq q : forall pb k, wf_quoted pb q = true -> noq pb (render_quoted q ++ k) = noq false k.
Proof.
  induction q as [|c q IH|g IHg q IH]; intros pb k W; cbn [wf_quoted render_quoted app noq] in *.
  - apply negb_true_iff in W. subst pb. reflexivity.
  - apply andb_true_iff in W as [W1 W2]. rewrite (IH _ k W2).
    replace (negb pb && (c =? c_quote)%N) with false; [reflexivity|].
    unfold delim in W1. destruct pb; [reflexivity|].
    destruct (c =? c_nl)%N eqn:En; [apply N.eqb_eq in En; subst c; reflexivity|].
    destruct (c =? c_lb)%N; [discriminate|]. destruct (c =? c_rb)%N; [discriminate|].
    destruct (c =? c_quote)%N; [discriminate | reflexivity].
  - apply andb_true_iff in W as [W W3]. apply andb_true_iff in W as [W1 W2]. apply negb_true_iff in W1. subst pb.
    rewrite <- app_assoc. change (c_lb =? c_quote)%N with false. change (c_lb =? c_bs)%N with false. cbn [negb andb].
    rewrite (IHg false _ W2). cbn [app noq]. change (c_rb =? c_quote)%N with false. change (c_rb =? c_bs)%N with false.
    cbn [negb andb]. apply IH, W3.
Qed.

(* The scan walks over any text the splitter reads as balanced above the opening delimiter, and which in a quoted
   value has no active quote: it closes nothing and stops at nothing.  The scan counts the opening brace of a
   braced value, [bscan] does not. *)
Lemma scan_over fb x : forall pb n rest pb' n', rest <> [] ->
  bscan pb n x = Some (pb', n') -> (fb = false -> noq pb x = true) ->
  scan fb false pb (Z.of_nat n + Z.b2z fb) (x ++ rest) = scan fb false pb' (Z.of_nat n' + Z.b2z fb) rest.
Proof.
  induction x as [|c x IH]; intros pb n rest pb' n' Hr B Q; cbn [bscan app] in *.
  - injection B as <- <-. reflexivity.
  - assert (Hne : x ++ rest <> []) by (destruct x; [exact Hr | discriminate]).
    assert (Q1 : fb = false -> negb pb && (c =? c_quote)%N = false /\ noq (c =? c_bs)%N x = true).
    { intros F. specialize (Q F). cbn [noq] in Q. apply andb_true_iff in Q as [Q1 Q2]. apply negb_true_iff in Q1. auto. }
    rewrite (scan_step fb pb _ c _ Hne). unfold Spec.C10.delta, ceq. destruct pb; cbn [negb andb] in *.
    + rewrite Z.add_0_r. apply IH; [exact Hr | exact B | intros F; apply (Q1 F)].
    + destruct (c =? c_lb)%N eqn:E1; [|destruct (c =? c_rb)%N eqn:E2].
      * apply N.eqb_eq in E1. subst c.
        replace (if fb then _ else _) with false by (destruct fb; reflexivity).
        replace (Z.of_nat n + Z.b2z fb + 1) with (Z.of_nat (S n) + Z.b2z fb) by lia.
        apply IH; [exact Hr | exact B | intros F; apply (Q1 F)].
      * apply N.eqb_eq in E2. subst c. destruct n as [|m]; [discriminate|].
        replace (if fb then _ else _) with false
          by (destruct fb; [cbn [andb Z.b2z]; symmetry; apply Z.eqb_neq; lia | reflexivity]).
        replace (Z.of_nat (S m) + Z.b2z fb + -1) with (Z.of_nat m + Z.b2z fb) by lia.
        apply IH; [exact Hr | exact B | intros F; apply (Q1 F)].
      * replace (if fb then _ else _) with false
          by (destruct fb; [reflexivity | rewrite (proj1 (Q1 eq_refl)); reflexivity]).
        rewrite Z.add_0_r. apply IH; [exact Hr | exact B | intros F; apply (Q1 F)].
Qed.

Lemma last_ch_snoc2 c w x : last_ch (c :: w ++ [x]) = x.
Proof. apply last_ch_snoc. Qed.

(* the whole scan of a braced / quoted piece followed by [rest]: the piece is closed at its own delimiter *)
Lemma scan_braced_piece b rest : wf_braced false b = true ->
  scan true true false 0 (c_lb :: render_braced b ++ c_rb :: rest) = match rest with [] => true | _ => false end.
Proof.
  intros W. cbn [scan]. change (ceq c_lb c_lb) with true. cbn iota.
  etransitivity; [apply (scan_over true (render_braced b) false 0 (c_rb :: rest) false 0); [discriminate | | discriminate]|].
  - rewrite <- (app_nil_r (render_braced b)). apply (bscan_render b false 0 [] W).
  - cbn [scan]. change (ceq c_rb c_lb) with false. change (ceq c_rb c_rb) with true. destruct rest; reflexivity.
Qed.
Lemma scan_quoted_piece q rest : wf_quoted false q = true ->
  scan false true false 0 (c_quote :: render_quoted q ++ c_quote :: rest) = match rest with [] => true | _ => false end.
Proof.
  intros W. cbn [scan]. change (ceq c_quote c_lb) with false. change (ceq c_quote c_rb) with false.
  change (ceq c_quote c_quote) with true. cbn [andb negb]. rewrite !andb_false_r. cbn iota. change (ceq c_quote c_bs) with false.
  etransitivity; [apply (scan_over false (render_quoted q) false 0 (c_quote :: rest) false 0); [discriminate | |]|].
  - rewrite <- (app_nil_r (render_quoted q)), <- render_q2b. apply (bscan_render (q2b q) false 0 [] (wf_q2b q _ W)).
  - intros _. rewrite <- (app_nil_r (render_quoted q)). apply (wf_quoted_noq q false [] W).
  - cbn [scan]. change (ceq c_quote c_lb) with false. change (ceq c_quote c_rb) with false. change (ceq c_quote c_quote) with true.
    destruct rest; reflexivity.
Qed.

Lemma single_braced b : wf_braced false b = true ->
  is_single_enclosed_piece (c_lb :: render_braced b ++ [c_rb]) = true.
Proof. intros W. unfold is_single_enclosed_piece. rewrite last_ch_snoc. exact (scan_braced_piece b [] W). Qed.

Lemma single_quoted q : wf_quoted false q = true ->
  is_single_enclosed_piece (c_quote :: render_quoted q ++ [c_quote]) = true.
Proof. intros W. unfold is_single_enclosed_piece. rewrite last_ch_snoc. exact (scan_quoted_piece q [] W). Qed.

Lemma strip_tight0 s : tight s = true -> strip s = s.
Proof. intros T. pose proof (strip_tight [] s [] eq_refl eq_refl T) as H. rewrite app_nil_r in H. exact H. Qed.

Lemma strip_wrapped c t x : isspace c = false -> isspace x = false -> strip (c :: t ++ [x]) = c :: t ++ [x].
Proof. intros Hc Hx. apply strip_tight0. unfold tight. rewrite app_comm_cons, last_last, Hc, Hx. reflexivity. Qed.

Lemma strip_enclosing_single c w x : isspace c = false -> isspace x = false ->
  is_single_enclosed_piece (c :: w ++ [x]) = true -> strip_enclosing (c :: w ++ [x]) = (w, [c]).
Proof.
  intros Hc Hx I. change (strip_enclosing (c :: w ++ [x])) with (strip_core (strip (c :: w ++ [x]))).
  rewrite strip_wrapped, strip_core_snoc, I by assumption. reflexivity.
Qed.

Lemma strip_enclosing_not_single s : strip s = s -> is_single_enclosed_piece s = false ->
  strip_enclosing s = (s, no_enclosing).
Proof.
  intros S I. change (strip_enclosing s) with (strip_core (strip s)). rewrite S. unfold strip_core.
  rewrite I. destruct s as [|c [|y ys]]; reflexivity.
Qed.

Lemma value_strip v : wf_value v = true -> strip (render_value v) = render_value v.
Proof. intros W. apply strip_tight0, value_tight, W. Qed.

Definition gv1 (p : piece) : gvalue := mkgv p [].
Lemma render_gv1 p : render_value (gv1 p) = render_piece p.
Proof. unfold render_value, gv1. cbn. apply app_nil_r. Qed.

(* RemoveEnclosing on the enclosed text gives the content back, exactly (the content is not stripped) *)
Lemma strip_enclosing_braced b : wf_braced false b = true ->
  strip_enclosing (c_lb :: render_braced b ++ [c_rb]) = (render_braced b, [c_lb]).
Proof. intros W. apply strip_enclosing_single; [reflexivity | reflexivity | apply single_braced, W]. Qed.
Lemma strip_enclosing_quoted q : wf_quoted false q = true ->
  strip_enclosing (c_quote :: render_quoted q ++ [c_quote]) = (render_quoted q, [c_quote]).
Proof. intros W. apply strip_enclosing_single; [reflexivity | reflexivity | apply single_quoted, W]. Qed.

Lemma isp_false_if_scan c0 r : scan (ceq c0 c_lb) true false 0 (c0 :: r) = false -> is_single_enclosed_piece (c0 :: r) = false.
Proof. intros H. unfold is_single_enclosed_piece. rewrite H. destruct (negb _ && negb _); reflexivity. Qed.

Lemma not_single_braced_more b rest : wf_braced false b = true -> rest <> [] ->
  is_single_enclosed_piece (c_lb :: render_braced b ++ c_rb :: rest) = false.
Proof.
  intros W Hr. apply isp_false_if_scan. change (ceq c_lb c_lb) with true. rewrite (scan_braced_piece b rest W).
  destruct rest; [contradiction | reflexivity].
Qed.

Lemma not_single_quoted_more q rest : wf_quoted false q = true -> rest <> [] ->
  is_single_enclosed_piece (c_quote :: render_quoted q ++ c_quote :: rest) = false.
Proof.
  intros W Hr. apply isp_false_if_scan. change (ceq c_quote c_lb) with false. rewrite (scan_quoted_piece q rest W).
  destruct rest; [contradiction | reflexivity].
Qed.

Lemma name_ok_head s : name_ok s = true -> exists c r, s = c :: r /\ (c =? c_lb)%N = false /\ (c =? c_quote)%N = false /\ isspace c = false.
Proof.
  unfold name_ok. destruct s as [|c r]; [discriminate|]. cbn [nonnil kchars andb]. intros H.
  apply andb_true_iff in H as [H _]. apply andb_true_iff in H as [Hs H]. exists c, r. split; [reflexivity|].
  apply negb_true_iff in Hs. unfold no_delim, delim in H. destruct (c =? c_nl)%N; [discriminate|].
  destruct (c =? c_lb)%N; [discriminate|]. destruct (c =? c_rb)%N; [discriminate|].
  destruct (c =? c_quote)%N; [discriminate|]. repeat split; assumption.
Qed.

Lemma not_single_bare s rest : name_ok s = true -> is_single_enclosed_piece (s ++ rest) = false.
Proof.
  intros H. destruct (name_ok_head s H) as (c & r & -> & A & B & _). cbn [app]. unfold is_single_enclosed_piece, ceq.
  rewrite A, B. reflexivity.
Qed.

(* the text RemoveEnclosing leaves of a rendered value *)
Definition sval (v : gvalue) : str :=
  match v_more v, v_first v with
  | [], PBraced b => render_braced b
  | [], PQuoted q => render_quoted q
  | _, _ => render_value v
  end.

Lemma render_more_nonnil x l : render_more (x :: l) <> [].
Proof. destruct x as [[a b] p]. cbn [render_more]. destruct a; discriminate. Qed.

Lemma strip_enclosing_value v : wf_value v = true -> fst (strip_enclosing (render_value v)) = sval v.
Proof.
  intros W. pose proof (value_strip v W) as S. unfold wf_value in W. apply andb_true_iff in W as [Wp Wm].
  destruct v as [p more]. unfold sval, render_value in *. cbn [v_first v_more] in *.
  destruct more as [|x more].
  - cbn [render_more] in *. rewrite app_nil_r in *. destruct p as [s|b|q]; cbn [render_piece wf_piece] in *.
    + apply andb_true_iff in Wp as [Wp _]. rewrite strip_enclosing_not_single; [reflexivity | exact S|].
      rewrite <- (app_nil_r s). apply not_single_bare, Wp.
    + rewrite strip_enclosing_braced by exact Wp. reflexivity.
    + rewrite strip_enclosing_quoted by exact Wp. reflexivity.
  - pose proof (render_more_nonnil x more) as Hn. rewrite strip_enclosing_not_single; [destruct p; reflexivity | exact S |].
    destruct p as [s|b|q]; cbn [render_piece wf_piece] in *.
    + apply andb_true_iff in Wp as [Wp _]. apply not_single_bare, Wp.
    + cbn [app]. rewrite <- app_assoc. cbn [app]. apply not_single_braced_more; assumption.
    + cbn [app]. rewrite <- app_assoc. cbn [app]. apply not_single_quoted_more; assumption.
Qed.

Lemma ends_bs_snoc s c : forall pb, ends_bs pb (s ++ [c]) = (c =? c_bs)%N.
Proof. intros pb. rewrite ends_bs_app. reflexivity. Qed.

Lemma bscan_piece p d : wf_piece p = true -> bscan false d (render_piece p) = Some (ends_bs false (render_piece p), d).
Proof.
  destruct p as [s|b|q]; cbn [wf_piece render_piece]; intros W.
  - apply andb_true_iff in W as [W _]. unfold name_ok in W. apply andb_true_iff in W as [_ W]. apply bscan_quiet, quiet_kchars, W.
  - rewrite app_comm_cons, ends_bs_snoc. cbn [app bscan negb andb]. rewrite N.eqb_refl, (bscan_render b false (S d) [c_rb] W). reflexivity.
  - rewrite app_comm_cons, ends_bs_snoc. cbn [app bscan negb andb]. change (c_quote =? c_lb)%N with false.
    change (c_quote =? c_rb)%N with false. change (c_quote =? c_bs)%N with false. cbn iota.
    rewrite <- render_q2b, (bscan_render (q2b q) false d [c_quote] (wf_q2b q _ W)). reflexivity.
Qed.

Lemma bscan_more l : forall pb d, wf_more l = true -> bscan pb d (render_more l) = Some (ends_bs pb (render_more l), d).
Proof.
  induction l as [|[[a b] p] r IH]; intros pb d W; [reflexivity|].
  cbn [wf_more] in W. apply andb_true_iff in W as [W Wr]. apply andb_true_iff in W as [W Wp]. apply andb_true_iff in W as [Wa Wb].
  cbn [render_more]. rewrite ends_bs_app. cbn [ends_bs]. change (c_hash =? c_bs)%N with false.
  rewrite !ends_bs_app, (ends_bs_ws b false Wb eq_refl).
  rewrite bscan_app, (bscan_quiet a pb d (quiet_ws a pb Wa)). cbn [bscan]. change (c_hash =? c_lb)%N with false.
  change (c_hash =? c_rb)%N with false. rewrite !andb_false_r. change (c_hash =? c_bs)%N with false.
  rewrite bscan_app, (bscan_quiet b false d (quiet_ws b false Wb)), (ends_bs_ws b false Wb eq_refl).
  rewrite bscan_app, (bscan_piece p d Wp). apply IH, Wr.
Qed.

Lemma bscan_value v d : wf_value v = true -> bscan false d (render_value v) = Some (ends_bs false (render_value v), d).
Proof.
  unfold wf_value, render_value. intros W. apply andb_true_iff in W as [Wp Wm].
  rewrite bscan_app, (bscan_piece _ d Wp), ends_bs_app. apply bscan_more, Wm.
Qed.

(* what RemoveEnclosing leaves of a rendered value can be written between braces again (unless it ends in a backslash: K7) *)
Lemma sval_brace_ok v : wf_value v = true -> ends_bs false (sval v) = false -> brace_ok (sval v) = true.
Proof.
  intros W E. pose proof W as W0. unfold wf_value in W. apply andb_true_iff in W as [Wp _].
  assert (G : ends_bs false (render_value v) = false -> brace_ok (render_value v) = true)
    by (intros E'; unfold brace_ok; rewrite (bscan_value v 0 W0), E'; reflexivity).
  unfold sval in *. destruct (v_more v); [|exact (G E)].
  destruct (v_first v); cbn [wf_piece] in Wp; [exact (G E) | apply render_brace_ok, Wp|].
  rewrite <- render_q2b. apply render_brace_ok, wf_q2b, Wp.
Qed.

Lemma noat_no_at s R : forallb (fun c => negb (c =? c_at)%N) s = true -> noat s R = true.
Proof.
  induction s as [|c s IH]; [reflexivity|]. cbn [forallb noat]. intros H. apply andb_true_iff in H as [H1 H2].
  rewrite H1. apply IH, H2.
Qed.
Lemma noat_plain_app s X R : forallb (fun c => negb (c =? c_at)%N) s = true -> noat (s ++ X) R = noat X R.
Proof. intros H. rewrite noat_app, (noat_no_at s _ H). reflexivity. Qed.
Lemma noat_cons_plain c X R : (c =? c_at)%N = false -> noat (c :: X) R = noat X R.
Proof. intros H. cbn [noat]. rewrite H. reflexivity. Qed.
Lemma no_at_forallb (p : ch -> bool) s : p c_at = false -> forallb p s = true ->
  forallb (fun c => negb (c =? c_at)%N) s = true.
Proof.
  intros Hp H. rewrite forallb_forall in *. intros c I. specialize (H c I).
  destruct (c =? c_at)%N eqn:E; [|reflexivity]. apply N.eqb_eq in E. subst c. congruence.
Qed.

Lemma no_at_ws s : is_ws s = true -> forallb (fun c => negb (c =? c_at)%N) s = true.
Proof. apply (no_at_forallb isspace s eq_refl). Qed.
Lemma no_at_word s : forallb isword s = true -> forallb (fun c => negb (c =? c_at)%N) s = true.
Proof. apply (no_at_forallb isword s eq_refl). Qed.

(* An '@' starts a block when word characters, then blanks or tabs, then '{' follow it ([at_ok]); side condition G
   ([noat t rest]) says that no '@' of t does, with [rest] behind t.  It is stable under a change of the text behind,
   as long as that text cannot complete such a pattern: blanks or tabs, then a character that is neither a word
   character, a blank, a tab nor '{' ([tailok]). *)
Definition stopper (c : ch) : bool := negb (isword c) && negb (is_sptab c) && negb (c =? c_lb)%N.
Definition tailok (T : str) : Prop := exists w c z, T = w ++ c :: z /\ is_hws w = true /\ stopper c = true.

Definition at2 (r : str) : bool := match drop_while is_sptab r with c :: _ => (c =? c_lb)%N | [] => false end.
Lemma at_ok_at2 r : at_ok r = at2 (drop_while isword r).
Proof. reflexivity. Qed.

Lemma at2_tail x : forall T y, tailok T -> at2 (x ++ T) = true -> at2 (x ++ y) = true.
Proof.
  induction x as [|a x IH]; intros T y HT H.
  - exfalso. destruct HT as (w & c & z & -> & Hw & Hc). cbn [app] in H. unfold at2 in H.
    unfold is_hws in Hw. rewrite (drop_while_all is_sptab w (c :: z) Hw) in H. cbn [drop_while] in H.
    unfold stopper in Hc. apply andb_true_iff in Hc as [Hc Hl]. apply andb_true_iff in Hc as [_ Hs].
    apply negb_true_iff in Hs, Hl. rewrite Hs in H. congruence.
  - cbn [app] in *. unfold at2 in *. cbn [drop_while] in *. destruct (is_sptab a); [|exact H].
    exact (IH T y HT H).
Qed.

Lemma at_ok_tail x : forall T y, tailok T -> at_ok (x ++ T) = true -> at_ok (x ++ y) = true.
Proof.
  induction x as [|a x IH]; intros T y HT H.
  - exfalso. pose proof HT as HT0. destruct HT as (w & c & z & -> & Hw & Hc). cbn [app] in H.
    rewrite at_ok_at2 in H.
    assert (E : drop_while isword (w ++ c :: z) = w ++ c :: z).
    { unfold stopper in Hc. apply andb_true_iff in Hc as [Hc _]. apply andb_true_iff in Hc as [Hc _]. apply negb_true_iff in Hc.
      destruct w as [|b w]; cbn [app drop_while]; [rewrite Hc; reflexivity|].
      cbn [is_hws forallb] in Hw. apply andb_true_iff in Hw as [Hb _]. rewrite (sptab_not_word b Hb). reflexivity. }
    rewrite E in H. pose proof (at2_tail [] _ [] HT0 H) as K. discriminate K.
  - rewrite at_ok_at2 in *. cbn [app drop_while] in *. destruct (isword a).
    + rewrite <- at_ok_at2 in *. exact (IH T y HT H).
    + exact (at2_tail (a :: x) T y HT H).
Qed.

Lemma noat_tail v : forall y T, tailok T -> noat v y = true -> noat v T = true.
Proof.
  induction v as [|c v IH]; intros y T HT H; [reflexivity|]. cbn [noat] in *.
  apply andb_true_iff in H as [H1 H2]. apply andb_true_iff. split; [|exact (IH y T HT H2)].
  destruct (c =? c_at)%N; [|reflexivity]. cbn [negb orb] in *. apply negb_true_iff in H1. apply negb_true_iff.
  destruct (at_ok (v ++ T)) eqn:E; [|reflexivity]. rewrite (at_ok_tail v T y HT E) in H1. discriminate.
Qed.

(* no '@' of v starts a block, whatever such text follows v *)
Definition nat_ok (v : str) : Prop := forall T, tailok T -> noat v T = true.
Lemma nat_ok_intro v y : noat v y = true -> nat_ok v.
Proof. intros H T HT. exact (noat_tail v y T HT H). Qed.
Lemma nat_ok_mid a v b y : noat (a ++ v ++ b) y = true -> nat_ok v.
Proof.
  rewrite noat_app. intros H. apply andb_true_iff in H as [_ H]. rewrite noat_app in H.
  apply andb_true_iff in H as [H _]. exact (nat_ok_intro _ _ H).
Qed.

Lemma sval_mid v : exists a b, render_value v = a ++ sval v ++ b.
Proof.
  unfold sval, render_value. destruct (v_more v).
  - cbn [render_more]. rewrite app_nil_r. destruct (v_first v); cbn [render_piece].
    + exists [], []. rewrite app_nil_r. reflexivity.
    + exists [c_lb], [c_rb]. reflexivity.
    + exists [c_quote], [c_quote]. reflexivity.
  - exists [], []. rewrite app_nil_r. destruct (v_first v); reflexivity.
Qed.
Lemma nat_ok_sval a v b y : noat (a ++ render_value v ++ b) y = true -> nat_ok (sval v).
Proof.
  destruct (sval_mid v) as (a' & b' & E). rewrite E. intros H.
  apply (nat_ok_mid (a ++ a') (sval v) (b' ++ b) y). rewrite <- !app_assoc in *. exact H.
Qed.

(* a name and, further on, its value: what every field and every @string is made of *)
Lemma nat_ok_name_value a x b v c y : noat (a ++ x ++ b ++ render_value v ++ c) y = true -> nat_ok x /\ nat_ok (sval v).
Proof.
  intros H. split; [exact (nat_ok_mid a x _ y H)|]. apply (nat_ok_sval (a ++ x ++ b) v c y). rewrite <- !app_assoc. exact H.
Qed.

(* tails the writer produces *)
Lemma tailok_stop c z : stopper c = true -> tailok (c :: z).
Proof. intros H. exists [], c, z. repeat split; assumption. Qed.
Lemma tailok_hws w c z : is_hws w = true -> stopper c = true -> tailok (w ++ c :: z).
Proof. intros Hw H. exists w, c, z. repeat split; assumption. Qed.
Lemma stopper_rb : stopper c_rb = true.  Proof. reflexivity. Qed.
Lemma stopper_comma : stopper c_comma = true.  Proof. reflexivity. Qed.
Lemma stopper_nl : stopper c_nl = true.  Proof. reflexivity. Qed.
Lemma stopper_eq : stopper c_eq = true.  Proof. reflexivity. Qed.

(* stripping whitespace off a brace content keeps it a brace content (unless a backslash becomes last: K7) *)
Lemma strip_split s : exists lead trail, s = lead ++ strip s ++ trail /\ is_ws lead = true /\ is_ws trail = true.
Proof.
  destruct (lstrip_split s) as (lead & E1 & H1). destruct (rstrip_split (lstrip s)) as (trail & E2 & H2).
  exists lead, trail. unfold strip, is_ws, C03.all_ws in *. rewrite <- E2, !forallb_forall. rewrite Forall_forall in H1, H2. repeat split; assumption.
Qed.

Lemma brace_ok_strip s : brace_ok s = true -> ends_bs false (strip s) = false -> brace_ok (strip s) = true.
Proof.
  unfold brace_ok. intros H E. destruct (strip_split s) as (lead & trail & S & Hl & Ht). rewrite S in H at 1.
  rewrite bscan_app, (bscan_quiet lead false 0 (quiet_ws lead false Hl)), (ends_bs_ws lead false Hl eq_refl), bscan_app in H.
  destruct (bscan false 0 (strip s)) as [[pb' d']|] eqn:B; [|discriminate].
  pose proof (bscan_ends _ _ _ _ _ B) as Ep. rewrite E in Ep. subst pb'. 
  rewrite (bscan_quiet trail false d' (quiet_ws trail false Ht)), (ends_bs_ws trail false Ht eq_refl) in H.
  destruct d'; [reflexivity | discriminate].
Qed.

Lemma strip_braced b : wf_braced false b = true -> ends_bs false (strip (render_braced b)) = false ->
  exists b', render_braced b' = strip (render_braced b) /\ wf_braced false b' = true.
Proof. intros W E. apply brace_ok_ast, brace_ok_strip; [apply render_brace_ok, W | exact E]. Qed.

Lemma nat_ok_strip a s b y : noat (a ++ s ++ b) y = true -> nat_ok (strip s).
Proof.
  destruct (strip_split s) as (lead & trail & S & _ & _). intros H. rewrite S in H.
  apply (nat_ok_mid (a ++ lead) (strip s) (trail ++ b) y). rewrite <- !app_assoc in *. exact H.
Qed.

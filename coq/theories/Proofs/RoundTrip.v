(* C05: the default write stack and the writer depend on a library only through its content.
   write_default f bs = cwrite_default f (content bs)  for libraries without failed blocks, with pairwise
   distinct keys and with sane removed-enclosing metadata (None / a dict); RoundTripEx.v shows each hypothesis necessary. *)
From Coq Require Import List NArith ZArith Bool Lia String.
From BP Require Import Base.Chars Model.Blocks Gen.Constants Model.Splitter Model.Enclosing Model.Interpolate
  Model.Writer Model.Pipeline Spec.C05 Proofs.LibAddProofs Proofs.EnclosingProofs Proofs.PipelineTotal.
Import ListNotations.

Notation EVal := Enclosing.Val.
Notation ERaise := Enclosing.Raise.
Notation ESkip := Enclosing.Skip.
Notation eres := Enclosing.res.

Definition no_failed (bs : list block) : bool := forallb (fun b => negb (is_failed_class b)) bs.
(* entry.parser_metadata["removed_enclosing"] is absent, None or a dict (anything else makes AddEnclosing raise) *)
Definition md_okv (md : option value) : bool :=
  match md with None | Some VNone | Some (VDict _) => true | _ => false end.
Definition md_ok1 (b : block) : bool :=
  match b with BEntry h _ _ _ => md_okv (dict_get (meta h) remove_enclosing_metadata_key) | _ => true end.
Definition md_ok (bs : list block) : bool := forallb md_ok1 bs.
(* the same test as [meta_ok] of PipelineTotal.v, on the entry of the header *)
Lemma meta_ok_md_okv h : meta_ok h = md_okv (dict_get (meta h) remove_enclosing_metadata_key).
Proof. reflexivity. Qed.

Definition rmap {T U} (g : T -> U) (r : eres T) : eres U :=
  match r with EVal x => EVal (g x) | ERaise c => ERaise c | ESkip => ESkip end.

Fixpoint enc_fields (fs : list (str * value)) : eres (list (str * value)) :=
  match fs with
  | [] => EVal []
  | kv :: r => match enc_value (snd kv) with
               | EVal v' => rmap (cons (fst kv, v')) (enc_fields r)
               | ERaise c => ERaise c
               | ESkip => ESkip
               end
  end.
Definition enc_c1 (c : bcontent) : eres bcontent :=
  match c with
  | KEntry t k fs => rmap (KEntry t k) (enc_fields fs)
  | KString k v => rmap (KString k) (enc_value v)
  | _ => EVal c
  end.

Definition fpair (f : field) : str * value := (fkey f, fval f).

Lemma add_fields_content md fs : (forall k, exists prev, md_lookup md k = EVal prev) ->
  rmap (map fpair) (add_fields default_add md fs) = enc_fields (map fpair fs).
Proof.
  intros Hm. induction fs as [|f r IH]; [reflexivity|].
  cbn [add_fields map enc_fields]. destruct (Hm (fkey f)) as [prev ->].
  rewrite enclose_default_add. cbn [fpair snd fst].
  destruct (enc_value (fval f)) as [v'| |]; [|reflexivity..].
  rewrite <- IH. destruct (add_fields default_add md r); reflexivity.
Qed.

Lemma add_block_content b : md_ok1 b = true -> is_failed_class b = false ->
  rmap content1 (add_block_encl default_add b) = enc_c1 (content1 b).
Proof.
  destruct b as [h t k fs|h k v|h v|h c|h c|h e|h e i|h k p d|h ks e]; intros Hm Hf; try discriminate; try reflexivity.
  - cbn [add_block_encl content1 enc_c1]. cbn [md_ok1] in Hm. rewrite <- meta_ok_md_okv in Hm.
    change (map (fun f => (fkey f, fval f)) fs) with (map fpair fs).
    rewrite <- (add_fields_content _ fs (fun k' => md_lookup_ok h k' Hm)). destruct (add_fields default_add _ fs); reflexivity.
  - cbn [add_block_encl content1 enc_c1]. rewrite enclose_default_add. destruct (enc_value v); reflexivity.
Qed.

Lemma map_res_content bs : md_ok bs = true -> no_failed bs = true ->
  rmap content (map_res (add_block_encl default_add) bs) = map_res enc_c1 (content bs).
Proof.
  induction bs as [|b r IH]; intros Hm Hf; [reflexivity|].
  cbn [md_ok no_failed forallb] in Hm, Hf. apply andb_true_iff in Hm as [Hm1 Hm2]. apply andb_true_iff in Hf as [Hf1 Hf2].
  apply negb_true_iff in Hf1. cbn [map_res content map]. rewrite <- (add_block_content b Hm1 Hf1).
  destruct (add_block_encl default_add b) as [b'| |]; cbn [rmap]; [|reflexivity..].
  change (map content1 r) with (content r). rewrite <- (IH Hm2 Hf2).
  destruct (map_res (add_block_encl default_add) r); reflexivity.
Qed.

Definition cfield (kv : str * value) : field := mkfield (fst kv) (snd kv) None.
Definition canon1 (c : bcontent) : block :=
  match c with
  | KEntry t k fs => BEntry hdr0 t k (map cfield fs)
  | KString k v => BString hdr0 k v
  | KPreamble v => BPreamble hdr0 v
  | KExpl c => BExpl hdr0 c
  | KImpl c => BImpl hdr0 c
  | KOther => BFailed hdr0 (EAbort 0)
  end.
Definition canon (cs : list bcontent) : list block := map canon1 cs.

Lemma content_canon1 c : content1 (canon1 c) = c.
Proof.
  destruct c as [t k fs|k v|v|c|c|]; try reflexivity. cbn [canon1 content1]. f_equal.
  rewrite map_map. rewrite <- (map_id fs) at 2. apply map_ext. intros [a b]; reflexivity.
Qed.
Lemma content_canon cs : content (canon cs) = cs.
Proof. unfold content, canon. rewrite map_map. rewrite <- (map_id cs) at 2. apply map_ext, content_canon1. Qed.

Lemma fields_pieces_canon indent col tr fs :
  fields_pieces indent col tr fs = fields_pieces indent col tr (map cfield (map fpair fs)).
Proof.
  induction fs as [|f r IH]; [reflexivity|]. cbn [map fields_pieces]. rewrite <- IH. f_equal.
  destruct r; reflexivity.
Qed.

Lemma treat_block_canon indent col tr failed b : is_failed_class b = false ->
  treat_block indent col tr failed b = treat_block indent col tr failed (canon1 (content1 b)).
Proof.
  destruct b; intros Hf; try discriminate; try reflexivity.
  cbn [content1 canon1 treat_block]. change (map (fun f => (fkey f, fval f)) fields) with (map fpair fields).
  rewrite <- fields_pieces_canon. reflexivity.
Qed.

Lemma write_pieces_canon indent col tr failed sep bs : no_failed bs = true ->
  write_pieces indent col tr failed sep bs = write_pieces indent col tr failed sep (canon (content bs)).
Proof.
  induction bs as [|b r IH]; intros Hf; [reflexivity|].
  cbn [no_failed forallb] in Hf. apply andb_true_iff in Hf as [Hf1 Hf2]. apply negb_true_iff in Hf1.
  cbn [content canon map write_pieces]. rewrite <- (treat_block_canon _ _ _ _ b Hf1).
  change (map canon1 (map content1 r)) with (canon (content r)). rewrite <- (IH Hf2).
  destruct r; reflexivity.
Qed.

Lemma entry_keys_canon b : entry_keys b = entry_keys (canon1 (content1 b)).
Proof.
  destruct b; try reflexivity. cbn [content1 canon1 entry_keys]. rewrite !map_map. reflexivity.
Qed.

Lemma max_key_len_canon bs : max_key_len bs = max_key_len (canon (content bs)).
Proof.
  unfold max_key_len. generalize 0. induction bs as [|b r IH]; intros m; [reflexivity|].
  cbn [content canon map fold_left]. rewrite <- entry_keys_canon. apply IH.
Qed.

Lemma write_canon f bs : no_failed bs = true -> write f bs = write f (canon (content bs)).
Proof.
  intros Hf. unfold write, resolve_column, auto_column. rewrite <- max_key_len_canon.
  rewrite <- (write_pieces_canon _ _ _ _ _ bs Hf). reflexivity.
Qed.

Definition pres_of_write (r : Writer.res str) : pres str :=
  match r with Writer.Val s => PVal s | Writer.Raise _ => PRaise | Writer.Skip => PSkip end.
Definition cwrite_default (f : fmt) (cs : list bcontent) : pres str :=
  match map_res enc_c1 cs with
  | EVal cs' => pres_of_write (write f (canon cs'))
  | ERaise _ => PRaise
  | ESkip => PSkip
  end.

Lemma add_block_failed b b' : add_block_encl default_add b = EVal b' -> is_failed_class b' = is_failed_class b.
Proof.
  destruct b; cbn [add_block_encl]; intros H; try (inversion H; subst; reflexivity).
  - destruct (add_fields _ _ _); try discriminate. inversion H; reflexivity.
  - destruct (enclose _ _ _ _); try discriminate. inversion H; reflexivity.
Qed.

Lemma Forall2_forallb {A B} (R : A -> B -> Prop) (p : A -> bool) (q : B -> bool) l l' :
  Forall2 R l l' -> (forall x y, R x y -> q y = p x) -> forallb q l' = forallb p l.
Proof. intros F H. induction F as [|x y l l' Hxy _ IH]; [reflexivity|]. cbn [forallb]. rewrite (H x y Hxy), IH. reflexivity. Qed.

Theorem write_default_c f bs : wf_blocks bs -> no_failed bs = true -> md_ok bs = true ->
  write_default f bs = cwrite_default f (content bs).
Proof.
  intros W Hf Hm. unfold write_default, cwrite_default, add_lib.
  rewrite (block_mw_wf _ bs (add_block_keys default_add) W), <- (map_res_content bs Hm Hf).
  destruct (map_res (add_block_encl default_add) bs) as [l| |] eqn:E; cbn [rmap]; try reflexivity.
  rewrite (write_canon f l); [reflexivity|]. rewrite <- Hf.
  exact (Forall2_forallb _ _ _ _ _ (map_res_Forall2 _ _ _ E) (fun b b' H => f_equal negb (add_block_failed b b' H))).
Qed.

(* keys and failedness are functions of the content *)
Definition ekey_c (c : bcontent) : list str := match c with KEntry _ k _ => [k] | _ => [] end.
Definition skey_c (c : bcontent) : list str := match c with KString k _ => [k] | _ => [] end.
Definition other_c (c : bcontent) : bool := match c with KOther => true | _ => false end.
Lemma ekeys_content bs : ekeys bs = flat_map ekey_c (content bs).
Proof. induction bs as [|b r IH]; [reflexivity|]. cbn [ekeys content flat_map map]. fold (ekeys r). rewrite IH. destruct b; reflexivity. Qed.
Lemma skeys_content bs : skeys bs = flat_map skey_c (content bs).
Proof. induction bs as [|b r IH]; [reflexivity|]. cbn [skeys content flat_map map]. fold (skeys r). rewrite IH. destruct b; reflexivity. Qed.
Lemma no_failed_content bs : no_failed bs = forallb (fun c => negb (other_c c)) (content bs).
Proof. induction bs as [|b r IH]; [reflexivity|]. cbn [no_failed content forallb map]. fold (no_failed r). rewrite IH. destruct b; reflexivity. Qed.

Theorem write_default_content f bs bs' :
  content bs = content bs' -> wf_blocks bs -> no_failed bs = true -> md_ok bs = true -> md_ok bs' = true ->
  write_default f bs = write_default f bs'.
Proof.
  intros E W Hf Hm Hm'.
  assert (W' : wf_blocks bs') by (unfold wf_blocks in *; rewrite ekeys_content, skeys_content, <- E, <- ekeys_content, <- skeys_content; exact W).
  assert (Hf' : no_failed bs' = true) by (rewrite no_failed_content, <- E, <- no_failed_content; exact Hf).
  rewrite (write_default_c f bs W Hf Hm), (write_default_c f bs' W' Hf' Hm'), E. reflexivity.
Qed.
Print Assumptions write_default_content.

Lemma parse_default_inv t l : parse_default t = PVal l ->
  exists bs, split t = Blocks bs /\ default_stack bs = EVal l.
Proof.
  unfold parse_default. destruct (split t) as [bs|]; [|discriminate].
  destruct (default_stack bs) as [l'| |] eqn:E; try discriminate. intros H; inversion H; subst. eauto.
Qed.

(* Library(blocks=...) at the end of the stack makes the keys distinct; the metadata is part of the invariant the
   stack keeps (Proofs/PipelineTotal.v) *)
Lemma parse_default_props t l : parse_default t = PVal l -> wf_blocks l /\ md_ok l = true.
Proof.
  intros H. split.
  - destruct (parse_default_inv _ _ H) as (bs & _ & D). unfold default_stack, remove_lib, block_mw in D.
    destruct (map_res remove_block (resolve_lib bs)) as [l0| |]; try discriminate. injection D as <-. apply lib_of_wf.
  - destruct (parse_default_good t) as (l' & H' & G). rewrite H in H'. injection H' as <-.
    rewrite Forall_forall in G. apply forallb_forall. intros b I. specialize (G b I).
    destruct b; try reflexivity. apply good_entry in G. apply G.
Qed.

Corollary roundtrip_fixpoint f t t1 l1 l2 t2 :
  roundtrip f t = PVal (t1, l2, t2) -> parse_default t = PVal l1 -> content l2 = content l1 ->
  no_failed l1 = true -> t2 = t1.
Proof.
  intros R P E Hf. unfold roundtrip in R. rewrite P in R.
  destruct (write_default f l1) as [t1'| |] eqn:W1; try discriminate.
  destruct (parse_default t1') as [l2'| |] eqn:P2; try discriminate.
  destruct (write_default f l2') as [t2'| |] eqn:W2; try discriminate.
  inversion R; subst. destruct (parse_default_props _ _ P) as [Wf1 M1]. destruct (parse_default_props _ _ P2) as [_ M2].
  rewrite (write_default_content f l1 l2 (eq_sym E) Wf1 Hf M1 M2) in W1. congruence.
Qed.
Print Assumptions roundtrip_fixpoint.

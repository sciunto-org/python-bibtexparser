(* C05, totality: on a well-formed duplicate-free document every step of the round trip returns a value, so the
   hypotheses of roundtrip_content / roundtrip_fixpoint_doc are never vacuous. *)
From Coq Require Import List.
From BP Require Import Model.Grammar Model.Pipeline Spec.C05 Proofs.PipelineTotal Proofs.RoundTrip2
  Proofs.RoundTrip4 Proofs.RoundTrip6.

Theorem parse_render_total d : wf_doc d -> nodup_doc d -> exists l, parse_default (render d) = PVal l.
Proof. intros _ _. apply parse_default_total. Qed.

(* C05 in one statement: the first parse succeeds, and outside K7 the whole round trip succeeds, preserves the
   content and reproduces the written text *)
Theorem C05_roundtrip_total : forall d f, wf_doc d -> nodup_doc d -> wf_fmt f ->
  exists l1, parse_default (render d) = PVal l1 /\
    (known_K7 l1 = false ->
     exists t1 l2, roundtrip f (render d) = PVal (t1, l2, t1) /\ content l2 = content l1).
Proof.
  intros d f Wd Nd Hf. destruct (parse_render_total d Wd Nd) as (l1 & P1). exists l1. split; [exact P1|]. intros K.
  destruct (parse_clean d l1 Wd Nd P1 K) as (cs & Wcs & E & Wb & Hm).
  destruct (clean_written f cs l1 Hf Wcs E Wb Hm) as (Hw & _ & _).
  destruct (parse_default_total (render (ast_fmt f cs))) as (l2 & P2).
  destruct (clean_roundtrip f cs l1 _ l2 Hf Wcs E Wb Hm Hw P2) as (_ & _ & C2 & Hw2).
  exists (render (ast_fmt f cs)), l2. split; [|exact C2]. unfold roundtrip. rewrite P1, Hw, P2, Hw2. reflexivity.
Qed.
Print Assumptions C05_roundtrip_total.

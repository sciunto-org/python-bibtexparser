(* C13: what the single pass of parse_single_name_into_parts guarantees about its own word and case lists
   (lock-step, no empty word), the partition theorem over them, words-once, strict vs non-strict, error blocks. *)
From Coq Require Import List NArith ZArith Bool Lia PeanoNat.
From BP Require Import Base.Chars Model.Blocks Model.Names Spec.C13 Proofs.NamesPartProofs.
Import ListNotations.

(* The word lists and the case lists of the pass go in lock-step and hold no empty word: they are the two projections
   of one list of sections of (word, case) pairs. *)
Definition lockstep (secs : list (list str)) (cases : list (list Z)) : Prop :=
  exists Zs : list (list zw), secs = map (map fst) Zs /\ cases = map (map snd) Zs /\ words_nonempty Zs.
Definition ZInv (st : pst) : Prop := lockstep (p_secs st) (p_cases st).

Lemma lockstep_push secs cases w c : w <> [] -> lockstep secs cases -> lockstep (push_last w secs) (push_last c cases).
Proof.
  intros Hw (Zs & -> & -> & Hne). exists (push_last (w, c) Zs). destruct Zs as [|z Zs]; cbn [push_last map fst snd].
  - repeat split. repeat constructor. exact Hw.
  - repeat split. inversion Hne; subst. constructor; [constructor|]; assumption.
Qed.

Lemma lockstep_newsec secs cases : lockstep secs cases -> lockstep ([] :: secs) ([] :: cases).
Proof. intros (Zs & -> & -> & Hne). exists ([] :: Zs). repeat split. constructor; [constructor | exact Hne]. Qed.

(* parse_sections hands the lists over reversed, sections and words *)
Lemma lockstep_final secs cases : lockstep secs cases -> lockstep (rev (map (@rev str) secs)) (rev (map (@rev Z) cases)).
Proof.
  intros (Zs & -> & -> & Hne). exists (rev (map (@rev zw) Zs)). repeat split.
  - rewrite map_rev, !map_map. f_equal. apply map_ext. intros l. symmetry. apply map_rev.
  - rewrite map_rev, !map_map. f_equal. apply map_ext. intros l. symmetry. apply map_rev.
  - apply Forall_rev, Forall_map. eapply Forall_impl; [|exact Hne]. intros l Hl. apply Forall_rev. exact Hl.
Qed.

Lemma rev_ne {A} (l : list A) : l <> [] -> rev l <> [].
Proof. destruct l as [|x l]; [contradiction|]. intros _ E. simpl in E. destruct (rev l); discriminate. Qed.

(* a separator at depth 0 completes the current word, if there is one; a comma then opens a new section *)
Definition close_word (st : pst) : pst :=
  match p_word st with
  | [] => mkpst (p_secs st) (p_cases st) [] (p_case st) 0 false (p_controlseq st) (p_specialchar st) false
  | _ => mkpst (push_last (rev (p_word st)) (p_secs st)) (push_last (p_case st) (p_cases st)) [] (-1) 0 false false false false
  end.
Definition new_section (st : pst) : pst :=
  mkpst ([] :: p_secs st) ([] :: p_cases st) [] (p_case st) 0 false (p_controlseq st) (p_specialchar st) false.

(* a character either joins the current word (the word lists stay as they are) or is a separator at depth 0 *)
Lemma parse_norm_kinds strict st c st' : parse_norm strict st c = POk st' ->
  (p_secs st' = p_secs st /\ p_cases st' = p_cases st /\ p_esc st' = false)
  \/ st' = close_word st \/ st' = new_section (close_word st).
Proof.
  unfold parse_norm. fold (close_word st). intros H.
  destruct (ceq c c_lb); [inversion H; auto|].
  destruct (ceq c c_rb).
  { destruct (negb (p_level st =? 0)%N); [inversion H; auto|]. destruct strict; [discriminate | inversion H; auto]. }
  destruct (negb (p_level st =? 0)%N); [inversion H; auto|].
  destruct (ceq c c_comma || ws_parse c); [|inversion H; auto].
  destruct (ceq c c_comma); [|inversion H; auto].
  destruct (length (p_secs (close_word st)) <? 3)%nat; [inversion H; auto|].
  destruct strict; [discriminate | inversion H; auto].
Qed.

Lemma parse_norm_inner strict st c : ceq c c_lb = false -> ceq c c_rb = false -> (p_level st =? 0)%N = false ->
  parse_norm strict st c =
  POk (mkpst (p_secs st) (p_cases st) (c :: p_word st)
             (if p_controlseq st then p_case st else if p_specialchar st then upd_case (p_case st) c else p_case st)
             (p_level st) false (if p_controlseq st then isalpha c else false) (p_specialchar st) false).
Proof. intros E1 E2 E3. unfold parse_norm. rewrite E1, E2, E3. reflexivity. Qed.

Lemma parse_norm_ws strict st c : ceq c c_lb = false -> ceq c c_rb = false -> ceq c c_comma = false -> ws_parse c = true ->
  (p_level st =? 0)%N = true -> parse_norm strict st c = POk (close_word st).
Proof. intros E1 E2 E3 E4 E5. unfold parse_norm. rewrite E1, E2, E3, E4, E5. reflexivity. Qed.

Lemma parse_norm_ord strict st c : ceq c c_lb = false -> ceq c c_rb = false -> ceq c c_comma = false -> ws_parse c = false ->
  (p_level st =? 0)%N = true ->
  parse_norm strict st c = POk (mkpst (p_secs st) (p_cases st) (c :: p_word st) (upd_case (p_case st) c) 0 false
                                      (p_controlseq st) (p_specialchar st) false).
Proof. intros E1 E2 E3 E4 E5. unfold parse_norm. rewrite E1, E2, E3, E4, E5. reflexivity. Qed.

Lemma norm_esc_false strict st c st' : parse_norm strict st c = POk st' -> p_esc st' = false.
Proof.
  intros H. destruct (parse_norm_kinds _ _ _ _ H) as [(_ & _ & E)|[->| ->]]; [exact E | | reflexivity].
  unfold close_word. destruct (p_word st); reflexivity.
Qed.

Lemma zinv_close st : ZInv st -> ZInv (close_word st).
Proof.
  intros HI. unfold close_word. destruct (p_word st) as [|x w] eqn:Ew; [exact HI|].
  apply lockstep_push; [apply rev_ne; discriminate | exact HI].
Qed.

Lemma norm_zinv strict st c st' : parse_norm strict st c = POk st' -> ZInv st -> ZInv st'.
Proof.
  intros H HI. destruct (parse_norm_kinds _ _ _ _ H) as [(E1 & E2 & _)|[->| ->]].
  - unfold ZInv. rewrite E1, E2. exact HI.
  - apply zinv_close, HI.
  - apply lockstep_newsec, zinv_close, HI.
Qed.

Lemma step_zinv strict st c st' : parse_step strict (POk st) c = POk st' -> ZInv st -> ZInv st'.
Proof.
  unfold parse_step, parse_esc. intros H HI.
  destruct (p_esc st); [destruct (ws_parse c) | destruct (ceq c c_bs)]; try exact (norm_zinv _ _ _ _ H HI).
  - destruct (p_bracestart _); inversion H; subst; exact HI.
  - inversion H; subst. exact HI.
Qed.

Lemma fold_left_fixed {S T} (f : S -> T -> S) z : (forall x, f z x = z) -> forall l, fold_left f l z = z.
Proof. intros H l. induction l as [|x l IH]; [reflexivity|]. cbn [fold_left]. rewrite H. exact IH. Qed.

Lemma fold_err strict s e : fold_left (parse_step strict) s (PErr e) = PErr e.
Proof. apply fold_left_fixed. reflexivity. Qed.

Lemma fold_zinv strict s : forall st st', fold_left (parse_step strict) s (POk st) = POk st' -> ZInv st -> ZInv st'.
Proof.
  induction s as [|c s IH]; intros st st' H HI; cbn [fold_left] in H.
  - inversion H; subst; exact HI.
  - destruct (parse_step strict (POk st) c) as [st1|e] eqn:E.
    + eapply IH; [exact H|]. eapply step_zinv; eassumption.
    + rewrite fold_err in H. discriminate.
Qed.

(* what parse_sections does after the loop: a backslash at the end of the text is an ordinary character, ... *)
Definition finish_esc (strict : bool) (r : pres pst) : pres pst :=
  match r with
  | PErr e => PErr e
  | POk st => if p_esc st then parse_norm strict (set_esc st false) c_bs else POk st
  end.

(* ... open braces are closed, the last word is completed, and an empty last section is dropped *)
Definition last_word (st : pst) : str := repeat_ch c_rb (N.to_nat (p_level st)) ++ p_word st.
Definition tail_secs (st : pst) : list (list str) :=
  match last_word st with [] => p_secs st | _ => push_last (rev (last_word st)) (p_secs st) end.
Definition tail_cases (st : pst) : list (list Z) :=
  match last_word st with [] => p_cases st | _ => push_last (p_case st) (p_cases st) end.
Definition tail_result (strict : bool) (secs : list (list str)) (cases : list (list Z)) :
  pres (list (list str) * list (list Z)) :=
  match secs, cases with
  | [] :: rs, _ :: rc =>
      if (1 <? length secs)%nat && strict then PErr NTrailing
      else POk (rev (map (@rev str) rs), rev (map (@rev Z) rc))
  | _, _ => POk (rev (map (@rev str) secs), rev (map (@rev Z) cases))
  end.
Definition parse_tail (strict : bool) (st : pst) : pres (list (list str) * list (list Z)) :=
  if negb (p_level st =? 0)%N && strict then PErr NUnterminated else tail_result strict (tail_secs st) (tail_cases st).

Lemma parse_sections_tail strict s :
  parse_sections strict s =
  match finish_esc strict (fold_left (parse_step strict) s (POk pst0)) with
  | PErr e => PErr e
  | POk st => parse_tail strict st
  end.
Proof.
  unfold parse_sections, finish_esc.
  destruct (fold_left (parse_step strict) s (POk pst0)) as [st0|e]; [|reflexivity].
  destruct (p_esc st0); [|reflexivity].
  destruct (parse_norm strict (set_esc st0 false) c_bs); reflexivity.
Qed.

Lemma tail_result_lockstep strict secs0 cases0 secs cases : lockstep secs0 cases0 ->
  tail_result strict secs0 cases0 = POk (secs, cases) -> lockstep secs cases.
Proof.
  assert (Hfin : forall s0 c0, lockstep s0 c0 ->
            POk (rev (map (@rev str) s0), rev (map (@rev Z) c0)) = POk (secs, cases) -> lockstep secs cases)
    by (intros s0 c0 L E; inversion E; subst; apply lockstep_final, L).
  intros L H. pose proof L as (Zs & -> & -> & Hne).
  destruct Zs as [|[|x z] Zs]; cbn [map tail_result] in H; [exact (Hfin _ _ L H) | | exact (Hfin _ _ L H)].
  destruct ((1 <? _)%nat && strict); [discriminate|].
  apply (Hfin _ _ (ex_intro _ Zs (conj eq_refl (conj eq_refl (Forall_inv_tail Hne)))) H).
Qed.

Lemma parse_sections_lockstep strict s secs cases : parse_sections strict s = POk (secs, cases) -> lockstep secs cases.
Proof.
  rewrite parse_sections_tail. intros H.
  destruct (fold_left (parse_step strict) s (POk pst0)) as [st0|e] eqn:Ef; [|discriminate].
  assert (HI0 : ZInv st0) by (apply (fold_zinv strict s _ _ Ef); exists [[]]; repeat split; repeat constructor).
  cbn [finish_esc] in H.
  assert (Ht : forall st, ZInv st -> parse_tail strict st = POk (secs, cases) -> lockstep secs cases).
  { intros st HI. unfold parse_tail. destruct (negb (p_level st =? 0)%N && strict); [discriminate|].
    apply tail_result_lockstep. unfold tail_secs, tail_cases. destruct (last_word st) as [|x w] eqn:Ew; [exact HI|].
    apply lockstep_push; [apply rev_ne; discriminate | exact HI]. }
  destruct (p_esc st0); [|exact (Ht _ HI0 H)].
  destruct (parse_norm strict (set_esc st0 false) c_bs) as [st|e] eqn:En; [|discriminate].
  exact (Ht _ (norm_zinv _ _ _ _ En HI0) H).
Qed.

Lemma forallb_nil_map {A B} (f : A -> B) (Zs : list (list A)) :
  forallb is_nil (map (map f) Zs) = forallb is_nil Zs.
Proof. induction Zs as [|z Zs IH]; [reflexivity|]. cbn. rewrite IH. destruct z; reflexivity. Qed.

Lemma parse_name_partition strict s p : parse_name strict s = POk p ->
  exists Zs : list (list zw),
    parse_sections strict s = POk (map (map fst) Zs, map (map snd) Zs) /\ words_nonempty Zs /\
    p = if forallb is_nil Zs then parts0 else partition_spec (map (map cw) Zs).
Proof.
  unfold parse_name. intros H.
  destruct (parse_sections strict s) as [[secs cases]|e] eqn:E; [|discriminate].
  destruct (parse_sections_lockstep strict s secs cases E) as (Zs & E1 & E2 & Hne). subst secs cases.
  exists Zs. split; [reflexivity|]. split; [exact Hne|].
  assert (Hall : forallb (fun sec : list str => match sec with [] => true | _ => false end) (map (map fst) Zs) = forallb is_nil Zs)
    by apply forallb_nil_map.
  rewrite Hall in H. destruct (forallb is_nil Zs); inversion H; subst; [reflexivity|].
  apply partition_eq. exact Hne.
Qed.

Lemma leading_le {A} (p : A -> bool) l : (leading p l <= length l)%nat.
Proof. induction l as [|x l IH]; simpl; [lia|]. destruct (p x); lia. Qed.
Lemma upto_last_le {A} (p : A -> bool) l : (upto_last p l <= length l)%nat.
Proof. induction l as [|x l IH]; simpl; [lia|]. destruct (upto_last p l); [destruct (p x)|]; lia. Qed.

Lemma skipn_add {A} (l : list A) a b : skipn a (skipn b l) = skipn (a + b) l.
Proof.
  revert l. induction b as [|b IH]; intros l.
  - rewrite Nat.add_0_r. reflexivity.
  - rewrite Nat.add_succ_r. destruct l as [|x l]; [rewrite !skipn_nil; reflexivity|]. simpl. apply IH.
Qed.

Lemma split3 {A} (l : list A) f k : (f <= k)%nat -> firstn f l ++ firstn (k - f) (skipn f l) ++ skipn k l = l.
Proof.
  intros H. replace (skipn k l) with (skipn (k - f) (skipn f l)).
  - rewrite firstn_skipn. apply firstn_skipn.
  - rewrite skipn_add. f_equal. lia.
Qed.

Lemma last_skipn {A} (l : list A) k d : (k < length l)%nat -> skipn k l <> [] /\ last (skipn k l) d = last l d.
Proof.
  revert k. induction l as [|x l IH]; intros k H; simpl in H; [lia|].
  destruct k as [|k].
  - simpl. split; [discriminate | reflexivity].
  - simpl skipn. destruct (IH k ltac:(lia)) as [I1 I2]. split; [exact I1|].
    rewrite I2. destruct l; [simpl in H; lia | reflexivity].
Qed.

Lemma last_map_fst (sec : list cword) : last (map fst sec) [] = fst (last sec ([], Caseless)).
Proof. change (@nil ch) with (fst (@nil ch, Caseless)) at 1. apply last_map. Qed.

Lemma von_end_lt (sec : list cword) : sec <> [] -> (von_end sec < length sec)%nat.
Proof.
  intros H. unfold von_end. pose proof (upto_last_le is_lower (removelast sec)). rewrite removelast_length in H0.
  destruct sec; [contradiction|]. simpl in *. lia.
Qed.

(* First, von and Last of a single section are consecutive slices: First ends at f, von at k, Last keeps a word *)
Lemma form1_bounds (sec : list cword) : sec <> [] ->
  let f := leading (fun x => negb (is_lower x)) (removelast sec) in
  let k := Nat.max f (von_end sec) in (f <= k /\ k < length sec)%nat.
Proof.
  intros Hne f k. pose proof (von_end_lt sec Hne) as Hv.
  pose proof (leading_le (fun x => negb (is_lower x)) (removelast sec)) as L. fold f in L. rewrite removelast_length in L.
  destruct sec; [contradiction|]. simpl length in *. unfold k. lia.
Qed.

Lemma spec_words_once secs : words_once secs (partition_spec secs) /\ last_keeps_final secs (partition_spec secs).
Proof.
  destruct secs as [|sec0 rest]; [split; [reflexivity | exact I]|].
  destruct rest as [|s1 rest].
  - destruct sec0 as [|a [|b [|c r]]].
    + split; [split; reflexivity | intros H; contradiction].
    + split; [split; reflexivity | intros _; split; [discriminate | reflexivity]].
    + split; [split; reflexivity | intros _; split; [discriminate | reflexivity]].
    + set (sec := a :: b :: c :: r).
      change (partition_spec [sec]) with (spec_form1 sec). unfold spec_form1.
      destruct (form1_bounds sec ltac:(discriminate)) as [Hf Hk]. cbv zeta in *. set (f := leading _ _) in *. set (k := Nat.max f _) in *.
      split.
      * unfold words_once. cbn [n_first n_von n_last n_jr]. split; [|reflexivity].
        rewrite <- !map_app. f_equal. apply split3. exact Hf.
      * unfold last_keeps_final. cbn [n_last]. intros _.
        destruct (last_skipn sec k ([], Caseless) Hk) as [L1 L2]. split.
        -- intros E. apply map_eq_nil in E. contradiction.
        -- rewrite !last_map_fst, L2. reflexivity.
  - change (partition_spec (sec0 :: s1 :: rest)) with
      (mkparts (map fst (last (s1 :: rest) [])) (map fst (firstn (von_end sec0) sec0)) (map fst (skipn (von_end sec0) sec0))
               (match s1 :: rest with [jr; _] => map fst jr | _ => [] end)).
    split.
    + unfold words_once. cbn [n_first n_von n_last n_jr]. split; [|split; reflexivity].
      rewrite <- map_app, firstn_skipn. reflexivity.
    + unfold last_keeps_final. cbn [n_last]. intros Hne.
      destruct (last_skipn sec0 (von_end sec0) ([], Caseless) (von_end_lt sec0 Hne)) as [L1 L2]. split.
      * intros E. apply map_eq_nil in E. contradiction.
      * rewrite !last_map_fst, L2. reflexivity.
Qed.

Lemma spec_words_once1 secs : words_once secs (partition_spec secs).
Proof. exact (proj1 (spec_words_once secs)). Qed.
Lemma spec_last_keeps_final secs : last_keeps_final secs (partition_spec secs).
Proof. exact (proj2 (spec_words_once secs)). Qed.

Lemma norm_strict_sub st c st' : parse_norm true st c = POk st' -> parse_norm false st c = POk st'.
Proof.
  unfold parse_norm. fold (close_word st). intros H.
  destruct (ceq c c_lb); [exact H|].
  destruct (ceq c c_rb); [destruct (negb (p_level st =? 0)%N); [exact H | discriminate]|].
  destruct (negb (p_level st =? 0)%N); [exact H|].
  destruct (ceq c c_comma || ws_parse c); [|exact H].
  destruct (ceq c c_comma); [|exact H].
  destruct (length (p_secs (close_word st)) <? 3)%nat; [exact H | discriminate].
Qed.
Lemma step_strict_sub st c st' : parse_step true (POk st) c = POk st' -> parse_step false (POk st) c = POk st'.
Proof.
  unfold parse_step, parse_esc. intros H.
  destruct (p_esc st); [destruct (ws_parse c) | destruct (ceq c c_bs)]; try exact H; apply norm_strict_sub; exact H.
Qed.
Lemma fold_strict_sub s : forall st st', fold_left (parse_step true) s (POk st) = POk st' ->
  fold_left (parse_step false) s (POk st) = POk st'.
Proof.
  induction s as [|c s IH]; intros st st' H; cbn [fold_left] in *; [exact H|].
  destruct (parse_step true (POk st) c) as [st1|e] eqn:E.
  - rewrite (step_strict_sub _ _ _ E). apply IH. exact H.
  - rewrite fold_err in H. discriminate.
Qed.

Lemma tail_result_sub secs cases r : tail_result true secs cases = POk r -> tail_result false secs cases = POk r.
Proof.
  unfold tail_result. destruct secs as [|[|x z] rs]; try (intros H; exact H). destruct cases as [|y rc]; try (intros H; exact H).
  rewrite andb_true_r, andb_false_r. destruct (1 <? _)%nat; [discriminate | intros H; exact H].
Qed.

Lemma sections_strict_sub s r : parse_sections true s = POk r -> parse_sections false s = POk r.
Proof.
  rewrite !parse_sections_tail. intros H.
  destruct (fold_left (parse_step true) s (POk pst0)) as [st0|e] eqn:Ef; [|discriminate].
  rewrite (fold_strict_sub s _ _ Ef). cbn [finish_esc] in *.
  assert (Ht : forall st, parse_tail true st = POk r -> parse_tail false st = POk r).
  { intros st. unfold parse_tail. destruct (negb (p_level st =? 0)%N); [discriminate|]. apply tail_result_sub. }
  destruct (p_esc st0); [|exact (Ht _ H)].
  destruct (parse_norm true (set_esc st0 false) c_bs) as [st|e] eqn:En; [|discriminate].
  rewrite (norm_strict_sub _ _ _ En). exact (Ht _ H).
Qed.

Lemma strict_sub s p : parse_name true s = POk p -> parse_name false s = POk p.
Proof.
  unfold parse_name. intros H. destruct (parse_sections true s) as [r|e] eqn:E; [|discriminate].
  rewrite (sections_strict_sub s r E). exact H.
Qed.

Lemma map_VStr_inj l l' : map VStr l = map VStr l' -> l = l'.
Proof.
  revert l'. induction l as [|x l IH]; intros [|y l'] H; simpl in H; try discriminate; [reflexivity|].
  inversion H; subst. f_equal. apply IH. assumption.
Qed.

Lemma parse_all_strs l :
  (exists ps, parse_all (map VStr l) = VOk (VList (map v_of_parts ps)) /\ Forall2 (fun n p => parse_name true n = POk p) l ps)
  \/ (exists e n, parse_all (map VStr l) = VInvalid e /\ In n l /\ parse_name true n = PErr e).
Proof.
  induction l as [|n l IH].
  - left. exists []. split; [reflexivity | constructor].
  - cbn [map parse_all]. destruct (parse_name true n) as [p|e] eqn:E.
    + destruct IH as [(ps & E1 & F)|(e & n' & E1 & Hin & E2)].
      * left. exists (p :: ps). rewrite E1. split; [reflexivity|]. constructor; assumption.
      * right. exists e, n'. rewrite E1. repeat split; [right; exact Hin | exact E2].
    + right. exists e, n. repeat split; [left; reflexivity | exact E].
Qed.

Lemma frame_refl nf fs : frame nf fs fs.
Proof. induction fs; constructor; auto. Qed.

Lemma Forall2_In_l {A B} (R : A -> B -> Prop) l l' x : Forall2 R l l' -> In x l -> exists y, R x y.
Proof.
  intros F. induction F as [|a b l l' Hab F IH]; intros Hin; [contradiction|].
  destruct Hin as [->|Hin]; [exists b; exact Hab | apply IH; exact Hin].
Qed.

(* SplitNameParts on one field: it stays (no name field), gets the parsed persons, or holds an invalid name, and
   then the loop stops with the fields as they are *)
Lemma split_one nf f : (mem_str (fkey f) nf = true -> exists l, names_of (fval f) l) ->
  (exists f', (forall r, transform_fields nf MwSplitParts (f :: r) =
                         match transform_fields nf MwSplitParts r with
                         | FOk r' => FOk (f' :: r') | FInvalid r' => FInvalid (f' :: r') | o => o end)
              /\ (fkey f' = fkey f /\ fline f' = fline f /\ (mem_str (fkey f) nf = false -> fval f' = fval f))
              /\ split_field_ok nf f f' /\ ~ has_invalid_name nf f)
  \/ ((forall r, transform_fields nf MwSplitParts (f :: r) = FInvalid (f :: r)) /\ has_invalid_name nf f).
Proof.
  intros Hf. unfold split_field_ok, has_invalid_name. cbn [transform_fields]. destruct (mem_str (fkey f) nf) eqn:Em.
  - destruct (Hf eq_refl) as [l Hl]. unfold names_of in *. rewrite Hl. cbn [transform_value].
    destruct (parse_all_strs l) as [(ps & E1 & F)|(e & n & E1 & Hin & E2)]; rewrite E1.
    + left. eexists. split; [reflexivity|]. split; [cbn; repeat split; discriminate|].
      split; [intros _; exists l, ps; repeat split; assumption|].
      intros (_ & l' & n & e & Hl' & Hin & Herr). injection Hl' as Hm. apply map_VStr_inj in Hm. subst l'.
      destruct (Forall2_In_l _ _ _ _ F Hin) as [p Hp]. rewrite Hp in Herr. discriminate.
    + right. split; [reflexivity|]. split; [reflexivity|]. exists l, n, e. repeat split; assumption.
  - left. exists f. split; [intros r; destruct (transform_fields nf MwSplitParts r); reflexivity|].
    split; [auto|]. split; [discriminate|]. intros [Hc _]. discriminate.
Qed.

Lemma tf_split nf fs : well_typed nf fs ->
  (exists fs', transform_fields nf MwSplitParts fs = FOk fs' /\ frame nf fs fs' /\ Forall2 (split_field_ok nf) fs fs'
               /\ ~ Exists (has_invalid_name nf) fs)
  \/ (exists fs', transform_fields nf MwSplitParts fs = FInvalid fs' /\ frame nf fs fs'
                  /\ exists f, In f fs /\ In f fs' /\ has_invalid_name nf f).
Proof.
  induction fs as [|f r IH]; intros HW.
  - left. exists []. repeat split; try constructor. intros H; inversion H.
  - inversion HW as [|? ? Hf Hr]; subst.
    destruct (split_one nf f Hf) as [(f' & Eq & Fr1 & Sp1 & N1)|(Eq & HI1)]; rewrite Eq.
    + destruct (IH Hr) as [(r' & E & Fr & Sp & NE)|(r' & E & Fr & f0 & I1 & I2 & HI)]; rewrite E.
      * left. exists (f' :: r'). split; [reflexivity|]. split; [constructor; assumption|]. split; [constructor; assumption|].
        intros Hex. inversion Hex; subst; contradiction.
      * right. exists (f' :: r'). split; [reflexivity|]. split; [constructor; assumption|].
        exists f0. split; [right; exact I1|]. split; [right; exact I2 | exact HI].
    + right. exists (f :: r). split; [reflexivity|]. split; [apply frame_refl|].
      exists f. split; [left; reflexivity|]. split; [left; reflexivity | exact HI1].
Qed.

Lemma split_entry_error_block nf h t key fs : well_typed nf fs ->
  error_block_spec nf h t key fs (name_entry nf MwSplitParts (BEntry h t key fs)).
Proof.
  intros HW. unfold error_block_spec, name_entry.
  destruct (tf_split nf fs HW) as [(fs' & E & Fr & Sp & NE)|(fs' & E & Fr & Hex)]; rewrite E.
  - left. exists fs'. auto.
  - right. exists fs'. auto.
Qed.

Lemma name_entry_other nf mw b : is_entry b = false -> name_entry nf mw b = NBVal b.
Proof. destruct b; try reflexivity; discriminate. Qed.

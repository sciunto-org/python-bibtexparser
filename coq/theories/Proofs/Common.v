(* Facts that every engine needs and none owns: lists, equality and lower-casing of str, and the
   insertion-ordered dicts of Model/Blocks.v (dict_get / dict_set read as a finite map). *)
From Coq Require Import List NArith Bool Lia Arith Permutation.
From BP Require Import Base.Chars Model.Blocks.
Import ListNotations.

Lemma list_len_ind {A} (P : list A -> Prop) :
  (forall l, (forall l', length l' < length l -> P l') -> P l) -> forall l, P l.
Proof.
  intros H l. remember (length l) as n eqn:E. revert l E.
  induction n as [n IH] using lt_wf_ind. intros l ->. apply H. intros l' Hl. apply (IH _ Hl _ eq_refl).
Qed.

Lemma Forall2_length {A B} (R : A -> B -> Prop) l l' : Forall2 R l l' -> length l = length l'.
Proof. induction 1; simpl; auto. Qed.

Lemma filter_map_comm {A B} (p : B -> bool) (g : A -> B) l : filter p (map g l) = map g (filter (fun x => p (g x)) l).
Proof. induction l as [|x l IH]; [reflexivity|]. simpl. destruct (p (g x)); simpl; rewrite IH; reflexivity. Qed.

Lemma filter_all {A} (p : A -> bool) l : (forall x, In x l -> p x = true) -> filter p l = l.
Proof.
  induction l as [|x l IH]; intros H; [reflexivity|]. cbn [filter].
  rewrite (H x (or_introl eq_refl)). f_equal. apply IH. intros y Hy; apply H; right; exact Hy.
Qed.

Lemma filter_filter_and {A} (p q : A -> bool) l : filter p (filter q l) = filter (fun x => p x && q x) l.
Proof.
  induction l as [|x l IH]; [reflexivity|]. cbn [filter].
  destruct (q x); cbn [filter]; rewrite ?andb_true_r, ?andb_false_r; [destruct (p x)|]; rewrite IH; reflexivity.
Qed.

Lemma incl_same_length {T} (l1 l2 : list T) : NoDup l1 -> NoDup l2 -> incl l1 l2 ->
  (length l1 = length l2 <-> incl l2 l1).
Proof.
  intros N1 N2 I. split.
  - intros E. apply NoDup_length_incl; [assumption | rewrite E; apply le_n | assumption].
  - intros I'. apply Nat.le_antisymm; apply NoDup_incl_length; assumption.
Qed.

(* the number after the greatest is new *)
Lemma list_max_lt l x : In x l -> x < S (list_max l).
Proof.
  intros H. pose proof (proj1 (list_max_le l _) (le_n _)) as F. rewrite Forall_forall in F. apply Nat.lt_succ_r, F, H.
Qed.
Lemma list_max_fresh l : ~ In (S (list_max l)) l.
Proof. intros H. apply list_max_lt in H. lia. Qed.

Lemma str_eqb_sym a b : str_eqb a b = str_eqb b a.
Proof.
  destruct (str_eqb a b) eqn:E; symmetry.
  - apply str_eqb_eq in E. subst. apply str_eqb_refl.
  - apply str_eqb_neq. apply str_eqb_neq in E. congruence.
Qed.

Lemma mem_str_false x l : mem_str x l = false <-> ~ In x l.
Proof.
  split; intros H.
  - intros Hin. apply mem_str_In in Hin. congruence.
  - destruct (mem_str x l) eqn:E; [apply mem_str_In in E; contradiction | reflexivity].
Qed.

(* a ch is code * 128 + class flags (Base/Chars.v: asc); 22 are the flags of an upper-case ASCII letter, 127 masks the
   flags.  Lowering adds 32 to the code and 60 to the flags, 32 * 128 + 60 = 4156, which lands above asc 90 = 'Z' *)
Lemma lower_ch_idem c : lower_ch (lower_ch c) = lower_ch c.
Proof.
  unfold lower_ch. change (asc 65) with 8342%N. change (asc 90) with 11542%N.
  destruct ((8342 <=? c)%N && (c <=? 11542)%N && (N.land c 127 =? 22)%N) eqn:E; [|rewrite E; reflexivity].
  apply andb_true_iff in E as [E _]. apply andb_true_iff in E as [E1 _]. apply N.leb_le in E1.
  replace ((c + 4156 <=? 11542)%N) with false by (symmetry; apply N.leb_gt; lia).
  rewrite andb_false_r. reflexivity.
Qed.
Lemma lower_idem s : lower (lower s) = lower s.
Proof. unfold lower. rewrite map_map. apply map_ext, lower_ch_idem. Qed.

Section Dict.
  Context {V : Type}.
  Implicit Types (d : list (str * V)) (k : str) (v : V).

  Lemma dict_get_set d k v k' : dict_get (dict_set d k v) k' = if str_eqb k' k then Some v else dict_get d k'.
  Proof.
    induction d as [|[k0 v0] d IH]; simpl; [reflexivity|].
    destruct (str_eqb k k0) eqn:E; simpl.
    - apply str_eqb_eq in E. subst k0. destruct (str_eqb k' k); reflexivity.
    - rewrite IH. destruct (str_eqb k' k0) eqn:E0; [|reflexivity].
      apply str_eqb_eq in E0. subst k0. rewrite str_eqb_sym, E. reflexivity.
  Qed.
  Lemma dict_get_set_same d k v : dict_get (dict_set d k v) k = Some v.
  Proof. rewrite dict_get_set, str_eqb_refl. reflexivity. Qed.
  Lemma dict_get_set_other d k v k' : k' <> k -> dict_get (dict_set d k v) k' = dict_get d k'.
  Proof. intros H. apply str_eqb_neq in H. rewrite dict_get_set, H. reflexivity. Qed.

  Lemma dict_get_none d k : dict_get d k = None <-> ~ In k (map fst d).
  Proof.
    induction d as [|[k' v] d IH]; simpl; [tauto|].
    destruct (str_eqb k k') eqn:E.
    - apply str_eqb_eq in E. subst. split; [discriminate | intros H; exfalso; apply H; auto].
    - apply str_eqb_neq in E. rewrite IH. split; intros H; [intros [H1|H1]; [congruence | tauto] | tauto].
  Qed.
  Lemma dict_get_In d k v : NoDup (map fst d) -> In (k, v) d -> dict_get d k = Some v.
  Proof.
    induction d as [|[k0 v0] d IH]; simpl; intros Hnd Hin; [contradiction|].
    inversion Hnd as [|? ? Hk Hnd']; subst. destruct Hin as [Heq|Hin].
    - injection Heq as -> ->. rewrite str_eqb_refl. reflexivity.
    - destruct (str_eqb k k0) eqn:E; [|auto].
      apply str_eqb_eq in E. subst k0. exfalso. apply Hk. apply in_map_iff. exists (k, v); auto.
  Qed.

  Lemma dict_get_cat d d' k : dict_get (d ++ d') k = match dict_get d k with Some x => Some x | None => dict_get d' k end.
  Proof.
    induction d as [|[k1 v1] d IH]; simpl; [reflexivity|]. destruct (str_eqb k k1); [reflexivity | exact IH].
  Qed.

  (* assignment to an absent key appends *)
  Lemma dict_set_new d k v : ~ In k (map fst d) -> dict_set d k v = d ++ [(k, v)].
  Proof.
    induction d as [|[k0 v0] d IH]; simpl; intros H; [reflexivity|].
    destruct (str_eqb k k0) eqn:E; [apply str_eqb_eq in E; subst; tauto|]. rewrite IH; tauto.
  Qed.
  Lemma dict_get_in d k v : dict_get d k = Some v -> In (k, v) d.
  Proof.
    induction d as [|[k' v'] r IH]; simpl; [discriminate|].
    destruct (str_eqb k k') eqn:E; [|auto].
    apply str_eqb_eq in E. intros H; inversion H; subst. left; reflexivity.
  Qed.
  Lemma dict_get_key d k : dict_get d k <> None <-> In k (map fst d).
  Proof.
    destruct (dict_get d k) as [v|] eqn:G.
    - apply dict_get_in, (in_map fst) in G. split; [intros _; exact G | discriminate].
    - apply dict_get_none in G. tauto.
  Qed.

  (* assignment keeps the position of a present key *)
  Lemma dict_keys_set d k v :
    map fst (dict_set d k v) = if mem_str k (map fst d) then map fst d else map fst d ++ [k].
  Proof.
    induction d as [|[k0 v0] d IH]; [reflexivity|]. cbn [dict_set map fst mem_str].
    destruct (str_eqb k k0) eqn:E; cbn [orb map fst]; [reflexivity|].
    rewrite IH. destruct (mem_str k (map fst d)); reflexivity.
  Qed.
  Lemma dict_keys_set_nodup d k v : NoDup (map fst d) -> NoDup (map fst (dict_set d k v)).
  Proof.
    intros H. rewrite dict_keys_set. destruct (mem_str k (map fst d)) eqn:E; [exact H|].
    apply mem_str_false in E. apply NoDup_Add with (1 := Add_app k (map fst d) []). rewrite app_nil_r. auto.
  Qed.
  Lemma dict_set_idem d k v : dict_set (dict_set d k v) k v = dict_set d k v.
  Proof.
    induction d as [|[k0 v0] d IH]; cbn [dict_set].
    - rewrite str_eqb_refl. reflexivity.
    - destruct (str_eqb k k0) eqn:E; cbn [dict_set]; rewrite E; [reflexivity|]. rewrite IH. reflexivity.
  Qed.
  Lemma dict_set_in_val d k v k' v' : In (k', v') (dict_set d k v) -> In (k', v') d \/ v' = v.
  Proof.
    induction d as [|[k0 v0] r IH]; simpl.
    - intros [H|[]]. inversion H. auto.
    - destruct (str_eqb k k0); simpl; intros [H|H]; auto.
      + inversion H. auto.
      + apply IH in H. tauto.
  Qed.

  (* deletion takes out the one binding of the key *)
  Lemma dict_keys_del d k : incl (map fst (dict_del d k)) (map fst d).
  Proof.
    induction d as [|[k0 v0] r IH]; simpl; [apply incl_refl|].
    destruct (str_eqb k k0); simpl; [apply incl_tl, incl_refl | apply incl_cons; [left; reflexivity | apply incl_tl, IH]].
  Qed.
  Lemma dict_keys_del_nodup d k : NoDup (map fst d) -> NoDup (map fst (dict_del d k)).
  Proof.
    induction d as [|[k0 v0] r IH]; simpl; intros H; [exact H|]. inversion H as [|x l Hn Hr]; subst.
    destruct (str_eqb k k0); simpl; [exact Hr|]. constructor; [|apply IH, Hr]. intros Hin. apply Hn, (dict_keys_del r k), Hin.
  Qed.
  Lemma dict_get_del_same d k : NoDup (map fst d) -> dict_get (dict_del d k) k = None.
  Proof.
    induction d as [|[k1 v1] r IH]; simpl; intros N; auto. inversion N as [|x l Hn Hr]; subst.
    destruct (str_eqb k k1) eqn:E.
    - apply str_eqb_eq in E. subst. apply dict_get_none. assumption.
    - simpl. rewrite E. auto.
  Qed.
  Lemma dict_get_del_other d k k' : k' <> k -> dict_get (dict_del d k) k' = dict_get d k'.
  Proof.
    intros Hne. induction d as [|[k1 v1] r IH]; simpl; auto.
    destruct (str_eqb k k1) eqn:E.
    - apply str_eqb_eq in E. subst. destruct (str_eqb k' k1) eqn:E'; auto. apply str_eqb_eq in E'. contradiction.
    - simpl. destruct (str_eqb k' k1); auto.
  Qed.
  Lemma dict_del_perm d k v : dict_get d k = Some v -> Permutation d ((k, v) :: dict_del d k).
  Proof.
    induction d as [|[k' v'] r IH]; simpl; [discriminate|]. destruct (str_eqb k k') eqn:E.
    - apply str_eqb_eq in E. intros [= ->]. subst. apply Permutation_refl.
    - intros H. eapply Permutation_trans; [apply perm_skip, IH, H | apply perm_swap].
  Qed.
End Dict.

Lemma dict_keys_incl {V W} (m1 : list (str * V)) (m2 : list (str * W)) :
  (forall k, dict_get m1 k <> None -> dict_get m2 k <> None) -> incl (map fst m1) (map fst m2).
Proof. intros H k Hk. apply dict_get_key, H, dict_get_key, Hk. Qed.
